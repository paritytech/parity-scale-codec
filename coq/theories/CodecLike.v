(* C16: the EncodeLike families as equations between encoders of the model. *)
Require Import Scale.Bytes Scale.Eres Scale.Prog Scale.Codec Scale.CodecEnc Scale.CodecDec Scale.CodecRt.

Definition like (c : N -> N -> eres (list byte)) (a b : ty) : Prop := forall v, enc c a v = enc c b v.

Lemma like_refl c t : like c t t. Proof. intros v; reflexivity. Qed.
Lemma like_trans c a b d : like c a b -> like c b d -> like c a d.
Proof. intros H1 H2 v. rewrite H1. apply H2. Qed.
Lemma like_sym c a b : like c a b -> like c b a.
Proof. intros H v. symmetry. apply H. Qed.

(* holders: Box / Rc / Arc (TBox); &T, &mut T, &&T, Cow, Ref are the type itself in the descriptor *)
Theorem like_box c sz t : like c (TBox sz t) t.
Proof. intros v. reflexivity. Qed.
Theorem like_box_box c sz sz' t u : like c t u -> like c (TBox sz t) (TBox sz' u).
Proof. intros H v. apply H. Qed.

(* the congruences: on each form of value both sides are the same expression in the encodings of
   the components *)

(* sequences: Vec, VecDeque, slices, LinkedList, BinaryHeap, BTreeSet, BTreeMap and slices of
   tuples all encode as count ++ items, whatever the container kind and element size *)
Theorem like_coll c k k' sz sz' t u : like c t u -> like c (TColl k sz t) (TColl k' sz' u).
Proof. intros H v. cbn [enc]. destruct v; try reflexivity. apply (f_equal (eapp _)), (f_equal econcat), map_ext, H. Qed.

(* String / &str encode like their bytes (Vec<u8>, &[u8], Bytes) *)
Lemma enc_byte c v b : is_byte v = Some b -> enc c (TPrim 1) v = EOk [b].
Proof.
  destruct v; try discriminate. cbn [is_byte enc]. change (2 ^ (8 * 1)) with 256.
  destruct (n <? 256); [|discriminate]. now intros [= <-].
Qed.

Lemma enc_bytes c l : forall bs, bytes_of_vals l = Some bs -> econcat (map (enc c (TPrim 1)) l) = EOk bs.
Proof.
  induction l as [|v l IH]; intros bs H; cbn [bytes_of_vals] in H; [now injection H as <-|].
  destruct (is_byte v) as [b|] eqn:Ev; [|discriminate]. destruct (bytes_of_vals l) as [bs'|]; [|discriminate].
  injection H as <-. cbn [map econcat]. now rewrite (enc_byte c v b Ev), (IH bs' eq_refl).
Qed.

Theorem like_str_bytes c sz l bs : bytes_of_vals l = Some bs ->
  enc c TStr (VSeq l) = enc c (TColl CVec sz (TPrim 1)) (VSeq l).
Proof. intros H. pose proof (enc_bytes c l bs H) as E. cbn [enc]. rewrite H, <- E. reflexivity. Qed.

Theorem like_option c t u : like c t u -> like c (TOption t) (TOption u).
Proof. intros H v. cbn [enc]. destruct v; try reflexivity. apply (f_equal (eapp _)), H. Qed.
Theorem like_result c t u e f : like c t u -> like c e f -> like c (TResult t e) (TResult u f).
Proof. intros H1 H2 v. cbn [enc]. destruct v; try reflexivity; apply (f_equal (eapp _)); [apply H1|apply H2]. Qed.
Theorem like_array c n t u : like c t u -> like c (TArray n t) (TArray n u).
Proof. intros H v. cbn [enc]. destruct v; try reflexivity. apply (f_equal (fun x => if _ : bool then econcat x else EIll)), map_ext, H. Qed.
Theorem like_pair c a b a' b' : like c a a' -> like c b b' -> like c (TPair a b) (TPair a' b').
Proof. intros H1 H2 v. cbn [enc]. destruct v; try reflexivity. apply f_equal2; [apply H1|apply H2]. Qed.

(* a one-tuple encodes like its element, a struct with one field like the field *)
Theorem like_one_tuple c t v : enc c (TPair t TUnit) (VPair v VUnit) = enc c t v.
Proof. cbn [enc]. unfold eapp, ebind. destruct (enc c t v); try reflexivity. now rewrite app_nil_r. Qed.

(* what A produces decodes as B to the corresponding value *)
Theorem like_decodes a b v bs known rest :
  like spec_c a b -> wf_ty b = true -> wf b v = true -> enc_spec a v = EOk bs ->
  runo (dec b) known (bs ++ rest) = OOk (canon b v) rest.
Proof.
  intros Hl Ht Hw He. apply roundtrip; auto. rewrite <- He. symmetry. apply Hl.
Qed.

(* Consequences used by C14, C07, C18 (and C01, C06, C13 for [enc_two_slices], [fixed_size]):
   self-delimitation, consume-all entry points, bulk = element-wise, skip = decode. *)
Require Import Scale.Bytes Scale.Eres Scale.Prog Scale.ProgFacts Scale.ProgMore Scale.Chunks Scale.CompactImpl
  Scale.CompactTheorems Scale.Codec Scale.CodecEnc Scale.Bits Scale.CodecDec Scale.CodecRt.

(* DecodeAll::decode_all / decode_all_with_depth_limit: decode, then require empty input *)
Definition decode_all (t : ty) (bs : list byte) : out val :=
  match runo (dec t) true bs with
  | OOk v [] => OOk v []
  | OOk _ (_ :: _) => OErr []
  | o => o
  end.

Theorem decode_all_exact t bs v :
  decode_all t bs = OOk v [] <-> runo (dec t) true bs = OOk v [].
Proof.
  unfold decode_all. destruct (runo (dec t) true bs) as [v' [|b r]|r| |]; split; intros H; try discriminate; auto.
Qed.

Theorem decode_all_rejects_trailing t bs v b r :
  runo (dec t) true bs = OOk v (b :: r) -> decode_all t bs = OErr [].
Proof. unfold decode_all. intros ->. reflexivity. Qed.

Theorem strict_prefix_fails t v bs pre suf known :
  wf_ty t = true -> wf t v = true -> enc_spec t v = EOk bs ->
  bs = pre ++ suf -> suf <> [] ->
  forall v' r, runo (dec t) known pre <> OOk v' r.
Proof.
  intros Ht Hw He -> Hs. apply runo_prefix_free with (suf := suf) (v := canon t v); [|exact Hs].
  rewrite <- (app_nil_r (pre ++ suf)). now apply roundtrip.
Qed.

(* a concatenation of encodings decodes value by value, in order *)
Fixpoint dec_all_of (ts : list ty) (known : bool) (bs : list byte) : option (list val * list byte) :=
  match ts with
  | [] => Some ([], bs)
  | t :: r => match runo (dec t) known bs with
              | OOk v rest => match dec_all_of r known rest with
                              | Some (vs, rest') => Some (v :: vs, rest')
                              | None => None
                              end
              | _ => None
              end
  end.

Definition item_ty (x : ty * val * list byte) := fst (fst x).
Definition item_val (x : ty * val * list byte) := snd (fst x).
Definition item_bytes (x : ty * val * list byte) := snd x.

Theorem concat_decodes_in_order known : forall (items : list (ty * val * list byte)) rest,
  Forall (fun x => wf_ty (item_ty x) = true /\
                   wf (item_ty x) (item_val x) = true /\ enc_spec (item_ty x) (item_val x) = EOk (item_bytes x)) items ->
  dec_all_of (map item_ty items) known (concat (map item_bytes items) ++ rest)
  = Some (map (fun x => canon (item_ty x) (item_val x)) items, rest).
Proof.
  intros items rest H. revert rest. induction H as [|x items (Ht & Hw & He) _ IH]; intros rest; [reflexivity|].
  cbn [map concat dec_all_of]. now rewrite <- app_assoc, (roundtrip _ _ _ known _ Ht Hw He), IH.
Qed.

(* C07: the bulk fast paths are indistinguishable from element-wise decoding *)
(* repeating a program that post-processes each item = repeating, then post-processing the list *)
Lemma rep_nat_map A B (c : prog A) (h : A -> B) (d : prog B) known :
  (forall bs, runo d known bs = runo (x <- c ;; Ret (h x)) known bs) ->
  forall k bs, runo (rep_nat k d) known bs = runo (l <- rep_nat k c ;; Ret (map h l)) known bs.
Proof.
  intros Hd. induction k as [|k IHk]; intros bs; [reflexivity|]. cbn [rep_nat].
  rewrite !runo_bind, Hd, runo_bind. destruct (runo c known bs) as [a r|r| |]; try reflexivity. cbn [runo].
  rewrite !runo_bind, IHk, runo_bind. destruct (runo (rep_nat k c) known r); reflexivity.
Qed.

(* n*B bytes read in one piece (as far as the outcome goes) and cut into words = n elements read
   one at a time *)
Lemma read_words_is_elementwise A B n (p : prog (list byte)) (g : list val -> A) known bs : 0 < B ->
  oview (runo p known bs) = rd (n * B) bs ->
  oview (runo (x <- p ;; Ret (g (map VN (words B x)))) known bs) =
  oview (runo (x <- rep n (dec_prim B) ;; Ret (g (map VN x))) known bs).
Proof.
  intros HB Hb.
  (* up to oview, p is n reads of B bytes, concatenated *)
  rewrite <- (N2Nat.id n), <- (rep_read_concat (read B) B known (runo_read B known)) in Hb.
  rewrite (oview_bind _ _ _ _ _ _ _ _ _ Hb (fun _ _ => eq_refl)). f_equal.
  rewrite !runo_bind, runo_rep, (rep_nat_map _ _ _ _ _ known (dec_prim_is_read B known)), runo_bind.
  pose proof (okP_rep_nat _ _ _ (N.to_nat n) (okP_read B) known bs) as Hk.
  destruct (runo (rep_nat (N.to_nat n) (read B)) known bs) as [l r|r| |]; try reflexivity.
  cbn [runo]. rewrite words_chunks by (lia || apply Hk). reflexivity.
Qed.

(* a primitive vector read in 16 KiB chunks (read_vec_from_u8s) = its elements read one at a time *)
Theorem bulk_vec_is_elementwise B n known bs : okB B = true ->
  oview (runo (x <- bulk_bytes B n ;; Ret (map VN (words B x))) known bs) =
  oview (runo (x <- rep n (dec_prim B) ;; Ret (map VN x)) known bs).
Proof.
  intros HB. apply okB_pos in HB.
  exact (read_words_is_elementwise _ B n (bulk_bytes B n) (fun x => x) known bs ltac:(lia) (bulk_spec B n known bs HB)).
Qed.

(* a primitive array read in one piece = its elements read one at a time *)
Theorem bulk_array_is_elementwise B n known bs : okB B = true ->
  oview (runo (x <- read (n * B) ;; Ret (VSeq (map VN (words B x)))) known bs) =
  oview (runo (x <- rep n (dec_prim B) ;; Ret (VSeq (map VN x))) known bs).
Proof.
  intros HB. apply okB_pos in HB.
  exact (read_words_is_elementwise _ B n (read (n * B)) VSeq known bs ltac:(lia) (runo_read (n * B) known bs)).
Qed.

(* encoding side: the deque's two slices, and the slice memory image, are the element-wise encoding *)
Lemma eapp_assoc a b c : eapp (eapp a b) c = eapp a (eapp b c).
Proof. destruct a; [destruct b; [destruct c|..]|..]; try reflexivity. cbn [eapp ebind]. now rewrite app_assoc. Qed.

Lemma econcat_app l0 l1 : econcat (l0 ++ l1) = eapp (econcat l0) (econcat l1).
Proof.
  induction l0 as [|r l0 IH]; cbn [app econcat]; [now destruct (econcat l1)|].
  change (eapp r (econcat (l0 ++ l1)) = eapp (eapp r (econcat l0)) (econcat l1)). now rewrite IH, eapp_assoc.
Qed.

Theorem enc_two_slices c t (s0 s1 : list val) :
  ebind (econcat (map (enc c t) s0)) (fun a => ebind (econcat (map (enc c t) s1)) (fun b => EOk (a ++ b))) =
  econcat (map (enc c t) (s0 ++ s1)).
Proof. rewrite map_app. symmetry. apply econcat_app. Qed.

(* Decode::encoded_fixed_size: Some for the multi-byte integers/floats (impl_endians), bool,
   and arrays of such; None for u8/i8 (impl_one_byte does not define it) and everything else *)
Fixpoint fixed_size (t : ty) : option N :=
  match t with
  | TPrim B => if B =? 1 then None else Some B
  | TBool => Some 1
  | TArray n t' => match fixed_size t' with Some s => Some (s * n) | None => None end
  | _ => None
  end.

(* Decode::skip: the default decodes and drops the value; arrays with a fixed element size
   skip element by element *)
Fixpoint skip (t : ty) : prog unit :=
  match t with
  | TArray n t' =>
      match fixed_size (TArray n t') with
      | Some _ => rep n (skip t') ;;; Ret tt
      | None => dec t ;;; Ret tt
      end
  | _ => dec t ;;; Ret tt
  end.

Definition forget {A} (o : out A) : out unit :=
  match o with OOk _ r => OOk tt r | OErr _ => OErr [] | OPanic => OPanic | ONoFuel => ONoFuel end.

(* [forget o = forget o']: o and o' have the same verdict and, on success, leave the same input.
   It does not see the values, so it relates programs of different types, and it is a congruence
   for bind *)
Lemma forget_view A (o o' : out A) : oview o = oview o' -> forget o = forget o'.
Proof. destruct o, o'; cbn [oview forget]; congruence. Qed.

Lemma forget_cong A A' B B' (p : prog A) (p' : prog A') (f : A -> prog B) (f' : A' -> prog B') known bs :
  forget (runo p known bs) = forget (runo p' known bs) ->
  (forall a a' r, forget (runo (f a) known r) = forget (runo (f' a') known r)) ->
  forget (runo (bindp p f) known bs) = forget (runo (bindp p' f') known bs).
Proof.
  intros H Hf. rewrite !runo_bind.
  destruct (runo p known bs), (runo p' known bs); cbn [forget] in H; try discriminate; try reflexivity.
  injection H as <-. apply Hf.
Qed.

Lemma forget_map A B (g : A -> B) (p : prog A) known bs :
  forget (runo (x <- p ;; Ret (g x)) known bs) = forget (runo p known bs).
Proof. rewrite runo_bind. destruct (runo p known bs); reflexivity. Qed.

Lemma forget_rep A A' (c : prog A) (c' : prog A') known n :
  (forall bs, forget (runo c known bs) = forget (runo c' known bs)) ->
  forall bs, forget (runo (rep n c) known bs) = forget (runo (rep n c') known bs).
Proof.
  intros H bs. rewrite !runo_rep. revert bs.
  induction (N.to_nat n) as [|k IH]; intros bs; [reflexivity|]. cbn [rep_nat].
  apply forget_cong; [apply H|]. intros a a' r. apply forget_cong; [apply IH|reflexivity].
Qed.

(* an array consumes what its elements decoded one after the other consume: by definition, except
   for primitive elements, where the array is read in one piece *)
Lemma array_consumes_elementwise n t known bs : wf_ty t = true ->
  forget (runo (dec (TArray n t)) known bs) = forget (runo (rep n (dec t)) known bs).
Proof.
  intros Hw. cbn [dec]. destruct t; try apply forget_map.
  rewrite (forget_view _ _ _ (bulk_array_is_elementwise B n known bs Hw)), forget_map.
  symmetry. apply forget_rep. intros bs0. apply forget_map.
Qed.

(* skipping advances exactly as far as decoding and fails exactly when decoding fails *)
Theorem skip_is_decode t known : wf_ty t = true -> forall bs,
  forget (runo (skip t) known bs) = forget (runo (dec t) known bs).
Proof.
  induction t; intros Hw bs; try apply forget_map.
  cbn [skip]. destruct (fixed_size (TArray n t)); [|apply forget_map].
  rewrite forget_map, array_consumes_elementwise by exact Hw. apply forget_rep. now apply IHt.
Qed.

(* DecodeLength::len on the six collections (and tuples led by one): the compact count *)
Definition peek_len (bs : list byte) : out N :=
  match runo (dec_compact 4) true bs with OOk n _ => OOk n [] | OErr _ => OErr [] | o => o end.

Lemma peek_len_enc k sz t l bs rest : Enc (TColl k sz t) (VSeq l) bs -> peek_len (bs ++ rest) = OOk (N.of_nat (length l)) [].
Proof. inversion 1; subst. unfold peek_len. now rewrite <- app_assoc, rt_count. Qed.

Theorem peek_len_correct k sz t l bs rest : wf (TColl k sz t) (VSeq l) = true ->
  enc_spec (TColl k sz t) (VSeq l) = EOk bs -> peek_len (bs ++ rest) = OOk (N.of_nat (length l)) [].
Proof. intros Hw He. exact (peek_len_enc k sz t l bs rest (enc_view _ _ _ Hw He)). Qed.

Theorem peek_len_tuple k sz t l b vb bs rest : wf (TPair (TColl k sz t) b) (VPair (VSeq l) vb) = true ->
  enc_spec (TPair (TColl k sz t) b) (VPair (VSeq l) vb) = EOk bs -> peek_len (bs ++ rest) = OOk (N.of_nat (length l)) [].
Proof.
  intros Hw He. apply enc_view in He; [|exact Hw].
  apply Enc_pair_inv in He as (x & y & bx & by' & [= <- <-] & -> & Hx & _).
  rewrite <- app_assoc. exact (peek_len_enc k sz t l bx _ Hx).
Qed.

(* Correspondence cases over the codec universe (C01, C02, C03, C07, C08, C11,
   C12, C14, C18, C19, C09): what the implementation did on a case, compared
   with what the model computes. *)
Require Import Scale.Bytes Scale.Hex Scale.Eres Scale.Prog Scale.Real Scale.CompactImpl Scale.CompactSpec Scale.Codec
  Scale.Rec Scale.RecRt.

Definition vbytes (s : list byte) : val := VSeq (map (fun b => VN (Byte.to_N b)) s).
Definition vwords (B : N) (s : list byte) : val := VSeq (map VN (words B s)).
Fixpoint bits_of_string (s : string) : list bool :=
  match s with
  | EmptyString => []
  | String c r => (N_of_ascii c =? 49) :: bits_of_string r
  end.
Definition vbits (s : string) : val := VBits (bits_of_string s).
(* n bits packed least-significant-bit first into bytes *)
Definition vbitsn (n : N) (bs : list byte) : val :=
  VBits (firstn (N.to_nat n) (List.concat (map (fun b => N_to_bits 8 (Byte.to_N b)) bs))).

Fixpoint bools_eqb (a b : list bool) : bool :=
  match a, b with
  | [], [] => true
  | x :: a', y :: b' => Bool.eqb x y && bools_eqb a' b'
  | _, _ => false
  end.

Fixpoint val_eqb (a b : val) : bool :=
  match a, b with
  | VUnit, VUnit => true
  | VBool x, VBool y => Bool.eqb x y
  | VN x, VN y => x =? y
  | VNone, VNone => true
  | VSome x, VSome y => val_eqb x y
  | VOk x, VOk y => val_eqb x y
  | VErr x, VErr y => val_eqb x y
  | VSeq l1, VSeq l2 =>
      (fix go (l1 l2 : list val) : bool :=
         match l1, l2 with
         | [], [] => true
         | x :: r1, y :: r2 => val_eqb x y && go r1 r2
         | _, _ => false
         end) l1 l2
  | VPair a1 b1, VPair a2 b2 => val_eqb a1 a2 && val_eqb b1 b2
  | VBits l1, VBits l2 => bools_eqb l1 l2
  | VVar k1 x, VVar k2 y => Nat.eqb k1 k2 && val_eqb x y
  | _, _ => false
  end.

Inductive dres := DOk (v : val) (consumed : N) | DErr | DPanic.

Definition dres_eqb (a b : dres) : bool :=
  match a, b with
  | DOk v c, DOk v' c' => val_eqb v v' && (c =? c')
  | DErr, DErr => true
  | DPanic, DPanic => true
  | _, _ => false
  end.

Definition consumed (bs rest : list byte) : N := N.of_nat (List.length bs) - N.of_nat (List.length rest).

Definition model_decode (t : ty) (known : bool) (bs : list byte) : dres :=
  match runo (dec t) known bs with
  | OOk v rest => DOk v (consumed bs rest)
  | OErr _ => DErr
  | OPanic => DPanic
  | ONoFuel => DPanic
  end.

(* wrapper stacks: innermost first *)
Inductive layer := LCount | LDepth (maxd : N) | LMem (limit : N).
Definition layer_mon (l : layer) : monitor :=
  match l with LCount => counted | LDepth d => depthmon d | LMem m => memmon m end.

(* a stack as one monitor over a list of counters (count / depth / used_mem), the
   inner wrapper sees every event first, as in the three wrapper files *)
Fixpoint stack_step (ls : list layer) (e : event) (st : list N) : list N * bool :=
  match ls, st with
  | l :: ls', s :: st' =>
      match l with
      | LCount => let '(s', ok) := mstep counted e s in
                  if ok then let '(r, ok') := stack_step ls' e st' in (s' :: r, ok') else (s' :: st', false)
      | LDepth d => let '(s', ok) := mstep (depthmon d) e s in
                  if ok then let '(r, ok') := stack_step ls' e st' in (s' :: r, ok') else (s' :: st', false)
      | LMem m => let '(s', ok) := mstep (memmon m) e s in
                  if ok then let '(r, ok') := stack_step ls' e st' in (s' :: r, ok') else (s' :: st', false)
      end
  | _, _ => (st, true)
  end.

(* CountedInput only counts a read that the *inner* input delivered; in a stack the
   layers outside it do not see reads fail, so the simple in-order fold above is
   the forwarding order of the code for reads; for hooks the depth and memory
   wrappers call the inner hook first and stop on its error. *)
Definition stackmon (ls : list layer) : monitor :=
  {| mst := list N; mstep := stack_step ls |}.

Inductive rres := ROk' (v : val) (consumed : N) (st : list N) | RErr' (st : list N) | RPanic'.

Definition model_run (t : ty) (known : bool) (ls : list layer) (bs : list byte) : rres :=
  match run (stackmon ls) (dec t) known bs (map (fun _ => 0) ls) with
  | ROk v rest st => ROk' v (consumed bs rest) st
  | RErr st => RErr' st
  | RPanic => RPanic'
  | RNoFuel => RPanic'
  end.

(* the recursive derived type: Rec.rdec with the recursion budget the harness chose *)
Definition model_rec_run (d : rdef) (F : N) (known : bool) (ls : list layer) (bs : list byte) : rres :=
  match run (stackmon ls) (rdec (N.to_nat F) d) known bs (map (fun _ => 0) ls) with
  | ROk v rest st => ROk' v (consumed bs rest) st
  | RErr st => RErr' st
  | RPanic => RPanic'
  | RNoFuel => RPanic'
  end.

Fixpoint ns_eqb (a b : list N) : bool :=
  match a, b with
  | [], [] => true
  | x :: a', y :: b' => (x =? y) && ns_eqb a' b'
  | _, _ => false
  end.

(* after an error the implementation's wrapper counters are compared only where the
   harness can observe them (count, used_mem); depth is internal: reported as 0 *)
Definition mask_depth (ls : list layer) (st : list N) : list N :=
  map (fun p => match fst p with LDepth _ => 0 | _ => snd p end) (combine ls st).

Definition rres_eqb (ls : list layer) (a b : rres) : bool :=
  match a, b with
  | ROk' v c st, ROk' v' c' st' => val_eqb v v' && (c =? c') && ns_eqb (mask_depth ls st) (mask_depth ls st')
  | RErr' st, RErr' st' => ns_eqb (mask_depth ls st) (mask_depth ls st')
  | RPanic', RPanic' => true
  | _, _ => false
  end.

(* trace summaries the harness can observe through a recording Input *)
Fixpoint allocs (evs : list event) : list N :=
  match evs with
  | [] => []
  | EHook (HAlloc n) :: r => n :: allocs r
  | _ :: r => allocs r
  end.

Inductive gcase :=
| GEnc (t : ty) (v : val) (out : list byte)
| GDec (t : ty) (known : bool) (inp : list byte) (r : dres)
| GRun (t : ty) (known : bool) (ls : list layer) (inp : list byte) (r : rres)
| GAlloc (t : ty) (known : bool) (inp : list byte) (al : list N)   (* sizes announced to on_before_alloc_mem, in order *)
| GPeak (t : ty) (known : bool) (inp : list byte) (peak : N)
| GRecRun (d : rdef) (F : N) (known : bool) (ls : list layer) (inp : list byte) (r : rres)
| GRecEnc (d : rdef) (F : N) (v : val) (out : list byte).     (* measured peak of live heap bytes during the decode *)

(* number of modelled reservations: each is one allocator request of the implementation, which may
   carry a header the model does not describe (the two reference counts of Rc/Arc, 16 bytes, plus
   padding to the alignment) *)
Fixpoint real_count (evs : list event) : N :=
  match evs with
  | [] => 0
  | EHook (HReal _) :: r => 1 + real_count r
  | _ :: r => real_count r
  end.
Definition peak_bound (evs : list event) : N := 2 * real_sum evs + 32 * real_count evs + 4096.

Definition g_check (c : gcase) : bool :=
  match c with
  | GEnc t v out =>
      match enc_impl t v with
      | EOk bs => bytes_eqb bs out
      | _ => false
      end
  | GDec t known inp r => dres_eqb (model_decode t known inp) r
  | GRun t known ls inp r => rres_eqb ls (model_run t known ls inp) r
  | GAlloc t known inp al => ns_eqb (allocs (snd (runt (dec t) known inp))) al
  | GPeak t known inp peak => peak <=? peak_bound (snd (runt (dec t) known inp))
  | GRecRun d F known ls inp r => rres_eqb ls (model_rec_run d F known ls inp) r
  | GRecEnc d F v out =>
      match renc (N.to_nat F) d v with
      | EOk bs => bytes_eqb bs out
      | _ => false
      end
  end.

Inductive gmodel := MEnc (r : eres (list byte)) | MDec (r : dres) | MRun (r : rres) | MAlloc (l : list N).
Definition g_model (c : gcase) : gmodel :=
  match c with
  | GEnc t v _ => MEnc (enc_impl t v)
  | GDec t known inp _ => MDec (model_decode t known inp)
  | GRun t known ls inp _ => MRun (model_run t known ls inp)
  | GAlloc t known inp _ => MAlloc (allocs (snd (runt (dec t) known inp)))
  | GPeak t known inp _ => MAlloc [real_sum (snd (runt (dec t) known inp)); real_count (snd (runt (dec t) known inp))]
  | GRecRun d F known ls inp _ => MRun (model_rec_run d F known ls inp)
  | GRecEnc d F v _ => MEnc (renc (N.to_nat F) d v)
  end.

(* C09 over the universe: reservations of [dec t] are bounded by rate * bytes read + allowance,
   for every type whose containers store elements that occupy at least one input byte. *)
Require Import Scale.Bytes Scale.Prog Scale.ProgFacts Scale.ProgMore Scale.Real Scale.CompactImpl Scale.Codec Scale.CodecEnc
  Scale.CodecDec.

(* a successful compact decode has read at least the prefix byte *)
Lemma abound_dec_compact B : abound 0 0 0 1 (dec_compact B).
Proof.
  pose proof (silent_dec_compact is_real B) as H. unfold dec_compact in *.
  destruct (B =? 1); [|destruct (B =? 2); [|destruct (B =? 4)]]; exact (silent_abound_byte _ _ H).
Qed.

Definition P : N := max_prealloc.

Fixpoint minw (t : ty) : N :=
  match t with
  | TUnit => 0
  | TBool => 1
  | TPrim B => B
  | TCompact _ => 1
  | TNonZero B => B
  | TOption _ | TResult _ _ | TOptionBool | TColl _ _ _ | TStr | TBits _ _ | TEnum _ => 1
  | TArray n t' => n * minw t'
  | TPair a b => minw a + minw b
  | TBox _ t' => minw t'
  | TDuration => 12
  end.

(* positive wire: every element stored by a container occupies at least one input byte *)
Fixpoint pw (t : ty) : bool :=
  match t with
  | TOption t' | TArray _ t' | TBox _ t' => pw t'
  | TResult a b | TPair a b => pw a && pw b
  | TColl _ sz t' => pw t' && (1 <=? minw t')
  | TEnum vs => pw_vars vs
  | _ => true
  end
with pw_vars (vs : variants) : bool :=
  match vs with VsNil => true | VsCons _ t r => pw t && pw_vars r end.

(* [abound (cs t) (cf t) (cr t) _ (dec t)]: success allowance, failure allowance, rate.  A collection
   succeeds with allowance 0: what a completed element reserved beyond its rate (cs t') and its
   slot or node (sz) is charged to the at least one byte it read, whence the rate cr t' + cs t' + sz
   (abound_rep_dyn); when it fails, one window P (the chunk reserved ahead, abound_chunk) and the
   failing element's own cf t' are not paid for by bytes read. *)
Fixpoint cs (t : ty) : N :=
  match t with
  | TOption t' => cs t'
  | TResult a b => N.max (cs a) (cs b)
  | TArray n t' => match t' with TPrim _ => 0 | _ => n * cs t' end
  | TPair a b => cs a + cs b
  | TBox sz t' => sz + cs t'
  | TEnum vs => csv vs
  | _ => 0
  end
with csv (vs : variants) : N :=
  match vs with VsNil => 0 | VsCons _ t r => N.max (cs t) (csv r) end.

Fixpoint cf (t : ty) : N :=
  match t with
  | TOption t' => cf t'
  | TResult a b => N.max (cf a) (cf b)
  | TColl k sz t' =>
      match k with
      | CVec | CHeap => match t' with TPrim _ => P | _ => P + cf t' end
      | _ => N.max (cf t') (cs t' + sz)
      end
  | TStr | TBits _ _ => P
  | TArray n t' => match t' with TPrim _ => 0 | _ => n * N.max (cs t') (cf t') end
  | TPair a b => N.max (cf a) (cs a + cf b)
  | TBox sz t' => sz + cf t'
  | TEnum vs => cfv vs
  | _ => 0
  end
with cfv (vs : variants) : N :=
  match vs with VsNil => 0 | VsCons _ t r => N.max (cf t) (cfv r) end.

Fixpoint cr (t : ty) : N :=
  match t with
  | TOption t' => cr t'
  | TResult a b => N.max (cr a) (cr b)
  | TColl k sz t' =>
      match k with
      | CVec | CHeap => match t' with TPrim _ => 1 | _ => cr t' + cs t' + sz end
      | _ => cr t' + cs t' + sz
      end
  | TStr | TBits _ _ => 1
  | TArray n t' => match t' with TPrim _ => 0 | _ => cr t' end
  | TPair a b => N.max (cr a) (cr b)
  | TBox _ t' => cr t'
  | TEnum vs => crv vs
  | _ => 0
  end
with crv (vs : variants) : N :=
  match vs with VsNil => 0 | VsCons _ t r => N.max (cr t) (crv r) end.

Lemma sat_mul_le k sz : sat_mul k sz <= k * sz.
Proof. unfold sat_mul. lia. Qed.

Lemma chunk_bound sz k : k <= chunk_len sz -> sat_mul k sz <= P.
Proof.
  intros Hk. pose proof (sat_mul_le k sz). pose proof (chunk_len_mul k sz Hk). unfold P. lia.
Qed.

(* one chunk of at most chunk_len sz elements: the reservation, announced first, is within the
   window, and is charged to the w bytes that the body p reads when it succeeds *)
Lemma abound_chunk A (p : prog A) sz k q f r w :
  k <= chunk_len sz -> abound 0 f r w p -> k * sz <= q * w ->
  abound 0 (P + f) (r + q) 0 (emit (HAlloc (sat_mul k sz)) ;;; emit (HReal (sat_mul k sz)) ;;; p).
Proof.
  intros Hk Hp Hq. pose proof (chunk_bound sz k Hk). pose proof (sat_mul_le k sz).
  apply abound_hook; [reflexivity|].
  eapply abound_weaken; [eapply abound_amortize with (q := q); [apply abound_reserve, Hp|]|..]; lia.
Qed.

Lemma abound_chunked c s f r w sz n : abound s f r w c -> 1 <= w -> sz <= P ->
  abound 0 (P + f) (r + s + sz) 0 (chunked_items sz n c).
Proof.
  intros Hc Hw Hsz. apply abound_two_stage with (c := fun k => one_chunk sz k c); [apply chunk_len_pos, Hsz|]. intros k Hk.
  apply abound_chunk with (q := sz) (w := k * w); [exact Hk|apply abound_rep_dyn; assumption|nia].
Qed.

Lemma abound_bulk B n : 1 <= B <= 16 -> abound 0 P 1 0 (bulk_bytes B n).
Proof.
  intros HB. apply abound_prefix; [apply abound_need|]. intros _.
  apply abound_two_stage with (c := one_bulk B); [apply chunk_len_pos; unfold max_prealloc; lia|]. intros k Hk.
  apply abound_chunk with (q := 1) (f := 0) (r := 0) (w := k * B); [exact Hk|apply abound_read|lia].
Qed.

(* a node cannot fail once its element is there; its reservation is charged to the element's bytes *)
Lemma abound_nodes c s f r w sz n : abound s f r w c -> 1 <= w ->
  abound 0 (N.max f (s + sz)) (r + s + sz) 0 (rep n (node sz c)).
Proof.
  intros Hc Hw. eapply abound_weaken;
    [apply abound_rep_dyn; [exact Hw|apply abound_emit_ret with (h := HReal sz), Hc]|cbn [real_sum]; lia ..].
Qed.

Lemma abound_tag2 A (p0 p1 : prog A) s f r w0 w1 :
  abound s f r w0 p0 -> abound s f r w1 p1 ->
  abound s f r 1 (b <- read_byte ;; match Byte.to_N b with 0 => p0 | 1 => p1 | _ => Fail end).
Proof.
  intros H0 H1. apply abound_prefix; [apply abound_read_byte|]. intros b.
  destruct (Byte.to_N b) as [|[?|?|]]; try apply abound_fail;
    (eapply abound_weaken; [eassumption|lia ..]).
Qed.

Lemma abound_dec_prim B : abound 0 0 0 B (dec_prim B).
Proof.
  unfold dec_prim. destruct (N.eqb_spec B 1) as [->|]; apply abound_map; [apply abound_read_byte|apply abound_read].
Qed.

Theorem dec_abound_mut :
  (forall t, wf_ty t = true -> pw t = true -> abound (cs t) (cf t) (cr t) (minw t) (dec t)) /\
  (forall vs, wf_vars_ty vs = true -> pw_vars vs = true ->
     forall b k, abound (csv vs) (cfv vs) (crv vs) 0 (dec_vars vs b k)).
Proof.
  apply ty_variants_ind; cbn [wf_ty wf_vars_ty pw pw_vars cs cf cr csv cfv crv minw dec dec_vars].
  - (* TUnit *) intros _ _. apply abound_ret.
  - (* TBool *) intros _ _. eapply abound_tag2; apply abound_ret.
  - (* TPrim *) intros B _ _. apply abound_map, abound_dec_prim.
  - (* TCompact *) intros B _ _. apply abound_map, abound_dec_compact.
  - (* TNonZero *) intros B _ _. apply abound_prefix; [apply abound_dec_prim|]. intros n. apply silent_abound. silence.
  - (* TOption *) intros t IH Ht Hp. eapply abound_tag2; [apply abound_ret|apply abound_map, IH; assumption].
  - (* TResult *) intros t IHt e IHe H Hp. apply andb_prop in H as [Ht He]. apply andb_prop in Hp as [Hpt Hpe].
    eapply abound_tag2; apply abound_map; [eapply abound_max_l, IHt|eapply abound_max_r, IHe]; assumption.
  - (* TOptionBool *) intros _ _. apply abound_prefix; [apply abound_read_byte|]. intros b. apply silent_abound. silence.
  - (* TColl *) intros k sz t IH H Hp. apply andb_prop in H as [Ht Hsz]. apply N.leb_le in Hsz.
    apply andb_prop in Hp as [Hpt Hw]. apply N.leb_le in Hw. specialize (IH Ht Hpt).
    apply abound_prefix; [apply abound_dec_compact|]. intros n. destruct k.
    (* vectors and heaps: element-wise in chunks, or primitives in bulk *)
    1,2: apply abound_map; destruct t;
      try (eapply abound_hook, abound_hook_ret, abound_chunked; (eassumption || reflexivity));
      apply abound_map, abound_bulk, okB_pos, Ht.
    (* lists and trees: one node per element *)
    all: eapply abound_hook, abound_hook, abound_hook_ret, abound_nodes; (eassumption || reflexivity).
  - (* TStr *) intros _ _. apply abound_prefix; [apply abound_dec_compact|]. intros n.
    apply abound_then; [apply abound_bulk; lia|]. intros bs. apply abound_free, silent_abound. silence.
  - (* TArray *) intros n t IH Ht Hp. specialize (IH Ht Hp).
    destruct t; try apply abound_map, abound_rep_static, IH. apply abound_map, abound_read.
  - (* TPair *) intros a IHa b IHb H Hp. apply andb_prop in H as [Ha Hb]. apply andb_prop in Hp as [Hpa Hpb].
    apply abound_bind; [apply IHa; assumption|]. intros x. apply abound_map, IHb; assumption.
  - (* TBox *) intros sz t IH Ht Hp.
    apply abound_hook, abound_hook, abound_reserve, abound_hook_ret, IH; trivial.
  - (* TDuration *) intros _ _.
    eapply abound_weaken; [apply abound_bind; [apply (abound_read 8)|]; intros s;
      apply abound_prefix; [apply (abound_read 4)|]; intros n; apply silent_abound; silence|lia ..].
  - (* TBits *) intros B msb H _. apply andb_prop in H as [HB _].
    apply abound_prefix; [apply abound_dec_compact|]. intros bits.
    destruct (2 ^ 29 - 1 <? bits); [apply abound_fail|].
    apply abound_then; [apply abound_bulk, okB_pos, HB|]. intros bs. apply abound_free, silent_abound. cbv zeta. silence.
  - (* TEnum *) intros vs IH Hvs Hp. apply abound_prefix; [apply abound_read_byte|]. intros b. apply IH; assumption.
  - (* VsNil *) intros _ _ b k. apply abound_fail.
  - (* VsCons *) intros idx t IHt vs IHvs H Hp b k. apply andb_prop in H as [Ht Hvs]. apply andb_prop in Hp as [Hpt Hpvs].
    destruct (b =? idx mod 256).
    + eapply abound_map, abound_max_l, IHt; assumption.
    + eapply abound_max_r, IHvs; assumption.
Qed.

(* the statement of C09: for every positive-wire type, every byte string, known or unknown
   input length: what the decode reserves is at most rate * (input length) + allowance *)
Theorem reservations_bounded_by_input t known bs : wf_ty t = true -> pw t = true ->
  real_sum (snd (runt (dec t) known bs)) <= cr t * N.of_nat (length bs) + N.max (cs t) (cf t).
Proof.
  intros Ht Hp. pose proof (abound_input _ _ _ _ _ _ known bs (proj1 dec_abound_mut t Ht Hp)) as H.
  destruct (dec_total t known bs Ht) as [Hnp Hnf]. rewrite <- runt_fst in Hnp, Hnf.
  destruct (fst (runt (dec t) known bs)); [exact H|exact H|contradiction ..].
Qed.

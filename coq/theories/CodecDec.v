(* What holds of every decoder of the universe on every input: well-formed descriptors, the variant
   dispatch, the bulk path as one read, and - by one traversal of [dec] for any relation preserved
   by its building blocks - totality / panic-freedom (C03) and independence of the known-length
   flag (C08). *)
Require Import Scale.Bytes Scale.Prog Scale.ProgMore Scale.Chunks Scale.CompactImpl Scale.CompactProofs Scale.CompactTheorems
  Scale.Utf8 Scale.Codec Scale.CodecEnc Scale.Bits.

(* well-formed descriptors: integer widths the language has; element sizes the
   const assertion in decode_vec_chunked admits *)
Fixpoint wf_ty (t : ty) : bool :=
  match t with
  | TUnit | TBool | TOptionBool | TStr | TDuration => true
  | TPrim B | TCompact B | TNonZero B => okB B
  | TOption t' => wf_ty t'
  | TResult a b => wf_ty a && wf_ty b
  | TColl _ sz t' => wf_ty t' && (sz <=? max_prealloc)
  | TArray _ t' => wf_ty t'
  | TPair a b => wf_ty a && wf_ty b
  | TBox _ t' => wf_ty t'
  | TBits B _ => okB B && (B <=? 8)
  | TEnum vs => wf_vars_ty vs
  end
with wf_vars_ty (vs : variants) : bool :=
  match vs with
  | VsNil => true
  | VsCons _ t r => wf_ty t && wf_vars_ty r
  end.

(* the decoder's first-match dispatch picks the variant the encoder wrote: its index is below 256
   and no other variant has it (what the derive guarantees, C17) *)
Lemma variant_at_in vs : forall k i t, variant_at vs k = Some (i, t) -> idx_in i vs = true.
Proof.
  induction vs as [|j u r IH]; intros [|k] i t; cbn [variant_at idx_in]; try discriminate.
  - intros [= <- _]. now rewrite N.eqb_refl.
  - intros H. rewrite (IH k i t H). apply orb_true_r.
Qed.

Lemma idx_ok_cons i t r : idx_ok (VsCons i t r) = true -> i < 256 /\ idx_in i r = false /\ idx_ok r = true.
Proof.
  cbn [idx_ok]. intros H. apply andb_prop in H as [H Hr]. apply andb_prop in H as [Hlt Hn].
  apply N.ltb_lt in Hlt. apply negb_true_iff in Hn. auto.
Qed.

Lemma variant_at_lt vs : idx_ok vs = true -> forall k i t, variant_at vs k = Some (i, t) -> i < 256.
Proof.
  induction vs as [|j u r IH]; intros Hok [|k] i t; cbn [variant_at]; try discriminate;
    apply idx_ok_cons in Hok as (Hlt & _ & Hr).
  - now intros [= <- _].
  - now apply IH.
Qed.

Lemma variant_at_wf vs : wf_vars_ty vs = true -> forall k i t, variant_at vs k = Some (i, t) -> wf_ty t = true.
Proof.
  induction vs as [|j u r IH]; intros H [|k] i t; cbn [variant_at wf_vars_ty] in *; try discriminate;
    apply andb_prop in H as [Hu Hr]; [now intros [= _ <-]|now apply IH].
Qed.

Lemma dec_vars_select vs : idx_ok vs = true -> forall k i t k0, variant_at vs k = Some (i, t) ->
  dec_vars vs i k0 = (v <- dec t ;; Ret (VVar (k0 + k) v)).
Proof.
  induction vs as [|j u r IH]; intros Hok [|k] i t k0; cbn [variant_at dec_vars]; try discriminate;
    apply idx_ok_cons in Hok as (Hlt & Hnot & Hr); rewrite N.mod_small by exact Hlt.
  - intros [= <- <-]. now rewrite N.eqb_refl, Nat.add_0_r.
  - intros H. destruct (N.eqb_spec i j) as [->|_].
    + rewrite (variant_at_in r k j t H) in Hnot. discriminate.
    + rewrite (IH Hr k i t (S k0) H). now rewrite Nat.add_succ_r.
Qed.

(* tags and index bytes that name no alternative are rejected *)
Lemma tag2_rejected A (p0 p1 : prog A) b known rest : 2 <= Byte.to_N b ->
  runo (x <- read_byte ;; match Byte.to_N x with 0 => p0 | 1 => p1 | _ => Fail end) known (b :: rest) = OErr rest.
Proof. intros H. cbn [read_byte bindp runo]. destruct (Byte.to_N b) as [|[p|p|]]; (reflexivity || lia). Qed.

(* [ni] is any test that, like the props files' [no_index], fails on a variant list whose head
   matches the byte *)
Lemma unknown_index_rejected (ni : N -> variants -> bool) :
  (forall b i t r, ni b (VsCons i t r) = negb (b =? i mod 256) && ni b r) ->
  forall vs b known rest, ni (Byte.to_N b) vs = true -> runo (dec (TEnum vs)) known (b :: rest) = OErr rest.
Proof.
  intros Hni vs b known rest. cbn [dec read_byte bindp runo]. generalize 0%nat.
  induction vs as [|i t r IH]; intros k H; cbn [dec_vars]; [reflexivity|].
  rewrite Hni in H. destruct (Byte.to_N b =? i mod 256); [discriminate|]. now apply IH.
Qed.

Lemma dec_prim_is_read B known bs :
  runo (dec_prim B) known bs = runo (x <- read B ;; Ret (le_dec x)) known bs.
Proof.
  unfold dec_prim. destruct (N.eqb_spec B 1) as [->|]; [|reflexivity].
  destruct bs as [|b r]; [reflexivity|]. rewrite (rt_read_bind _ 1 [b] _ known r eq_refl). cbn. f_equal. lia.
Qed.

Definition T {A} : A -> Prop := fun _ => True.
Lemma okP_top A (Q : A -> Prop) (p : prog A) : okP Q p -> okP T p.
Proof. apply okP_weaken. intros a _. exact I. Qed.

Lemma okB_pos B : okB B = true -> 1 <= B <= 16.
Proof. intros H. apply okwidth_le16, okB_okwidth, H. Qed.

Lemma chunk_len_pos esz : esz <= max_prealloc -> 0 < chunk_len esz.
Proof.
  unfold chunk_len, max_prealloc. intros H. destruct (N.eqb_spec esz 0); [unfold usize_max, u64max; lia|].
  apply N.div_str_pos. lia.
Qed.

Lemma sat_mul_small a b : a * b <= usize_max -> sat_mul a b = a * b.
Proof. intros H. apply N.min_r, H. Qed.
Lemma max_prealloc_usize : max_prealloc <= usize_max.
Proof. discriminate. Qed.

(* a chunk of elements of size sz fits the preallocation window (for sz = 0 the chunk is unbounded) *)
Lemma chunk_len_mul k sz : k <= chunk_len sz -> k * sz <= max_prealloc.
Proof.
  unfold chunk_len. destruct (N.eqb_spec sz 0) as [->|Hz]; intros Hk; [lia|].
  nia.
Qed.

Lemma silent_dec_compact c B : silent c (dec_compact B).
Proof.
  unfold dec_compact, dec_c8, dec_c16, dec_c32, dec_cbig, prefixed.
  destruct (B =? 1); [silence|]. destruct (B =? 2); [silence|]. destruct (B =? 4); silence.
Qed.
Lemma silent_dec_prim c B : silent c (dec_prim B).
Proof. unfold dec_prim. silence. Qed.

(* the two chunked loops of the decoder, as instances of the two-stage loop *)
Lemma chunked_items_two_stage esz n c :
  chunked_items esz n c = two_stage (chunk_len esz) n (fun k => one_chunk esz k c).
Proof. reflexivity. Qed.
Lemma bulk_bytes_two_stage B n : bulk_bytes B n = need (n * B) ;;; two_stage (chunk_len B) n (one_bulk B).
Proof. reflexivity. Qed.

(* the bulk path reads exactly n*B bytes, in one piece as far as the outcome goes - whatever B *)
Theorem bulk_spec_any B n known bs : oview (runo (bulk_bytes B n) known bs) = rd (n * B) bs.
Proof.
  rewrite bulk_bytes_two_stage. cbn [need bindp runo].
  assert (Hbody: oview (runo (two_stage (chunk_len B) n (one_bulk B)) known bs) = rd (n * B) bs).
  { apply chunked_read_is_one_read. intros k bs0. unfold one_bulk. rewrite !oeq_emit. apply runo_read. }
  destruct known; cbn [andb]; [|exact Hbody].
  destruct (avail (n * B) bs) eqn:Ha; cbn [negb]; [exact Hbody|]. now rewrite rd_short.
Qed.

Theorem bulk_spec B n known bs : 1 <= B <= 16 ->
  oview (runo (bulk_bytes B n) known bs) = rd (n * B) bs.
Proof. intros _. apply bulk_spec_any. Qed.

Lemma rt_bulk B n bs known rest : length bs = N.to_nat (n * B) ->
  runo (bulk_bytes B n) known (bs ++ rest) = OOk bs rest.
Proof. intros Hl. apply oview_ok. now rewrite bulk_spec_any, rd_app. Qed.

Theorem chunked_items_is_rep esz n c : esz <= max_prealloc -> oeq (chunked_items esz n c) (rep n c).
Proof.
  intros _. rewrite chunked_items_two_stage.
  apply (chunked_is_rep val c (fun k => emit (HAlloc (sat_mul k esz)) ;;; emit (HReal (sat_mul k esz)))).
  intros k B p known bs. reflexivity.
Qed.

(* Every decoder is built from a few blocks.  A relation on programs that is preserved by return,
   failure, sequencing and the hooks that do not nest is preserved by repetition, by the chunked
   element loop and by list/tree nodes; if it also holds of the reading primitives and is preserved
   by a descend/ascend bracket, it holds of [dec t] - given it holds of the one decoder that can
   crash, the bit sequence.  A property of single programs is the relation that ignores its second
   argument (a relation between two runs: Rec.fext, more budget extends the trace): totality (C03), independence of the known-length flag (C08) and the well-nestedness
   of traces (C11, Rec.dec_bok_mut) are instances. *)
Section Built.
  Variable R : forall A, prog A -> prog A -> Prop.
  Hypotheses
    (R_ret : forall A (a : A), R A (Ret a) (Ret a))
    (R_bind : forall A B (p q : prog A) (f g : A -> prog B),
        R A p q -> (forall a, R B (f a) (g a)) -> R B (bindp p f) (bindp q g))
    (R_alloc : forall A n (p q : prog A), R A p q -> R A (emit (HAlloc n) ;;; p) (emit (HAlloc n) ;;; q))
    (R_real : forall A n (p q : prog A), R A p q -> R A (emit (HReal n) ;;; p) (emit (HReal n) ;;; q)).

  Lemma built_rep A (c c' : prog A) n : R A c c' -> R _ (rep n c) (rep n c').
  Proof using R_ret R_bind.
    intros Hc. destruct n as [|p]; [apply R_ret|]. cbn [rep].
    induction p as [q IH|q IH|]; cbn [rep_pos]; repeat (apply R_bind; [assumption|intros]); apply R_ret.
  Qed.

  Lemma built_two_stage A cl n (c c' : N -> prog (list A)) :
    (forall k, R _ (c k) (c' k)) -> R _ (two_stage cl n c) (two_stage cl n c').
  Proof using R_ret R_bind.
    intros Hc. rewrite !two_stage_rep. apply R_bind.
    - apply built_rep, Hc.
    - intros full. destruct (n mod cl =? 0); [apply R_ret|]. apply R_bind; [apply Hc|intros; apply R_ret].
  Qed.

  Lemma built_chunked sz n (c c' : prog val) : R _ c c' -> R _ (chunked_items sz n c) (chunked_items sz n c').
  Proof using R_ret R_bind R_alloc R_real.
    intros Hc. rewrite !chunked_items_two_stage. apply built_two_stage. intros k. apply R_alloc, R_real, built_rep, Hc.
  Qed.

  Lemma built_node sz (c c' : prog val) : R _ c c' -> R _ (node sz c) (node sz c').
  Proof using R_ret R_bind R_real. intros Hc. apply R_bind; [exact Hc|]. intros v. apply R_real, R_ret. Qed.

  (* [strict]: whether R needs the widths in the descriptor to be well-formed: totality and the
     known-length flag do (the compact decoders are only specified for the widths that exist), the
     well-nestedness of traces does not.  The conditions read [if strict then .. else True], so
     that an instance has them as plain hypotheses, or none. *)
  Variable strict : bool.
  Hypotheses
    (R_fail : forall A, R A Fail Fail)
    (R_nest : forall A B (p q : prog A) (g : A -> B), R A p q -> R B (nest p g) (nest q g))
    (R_read_byte : R _ read_byte read_byte)
    (R_read : forall n, R _ (read n) (read n))
    (R_compact : forall B, (if strict then okwidth B else True) -> R _ (dec_compact B) (dec_compact B))
    (R_bulk : forall B n, R _ (bulk_bytes B n) (bulk_bytes B n))
    (R_bits : forall B msb, (if strict then okB B && (B <=? 8) = true else True) -> R _ (dec (TBits B msb)) (dec (TBits B msb))).

  Let andl (a b : bool) : (if strict then a && b = true else True) -> if strict then a = true else True.
  Proof. destruct strict; [apply andb_prop|auto]. Qed.
  Let andr (a b : bool) : (if strict then a && b = true else True) -> if strict then b = true else True.
  Proof. destruct strict; [apply andb_prop|auto]. Qed.
  Let weaken (P Q : Prop) : (P -> Q) -> (if strict then P else True) -> if strict then Q else True.
  Proof. destruct strict; auto. Qed.

  Let R_map A B (p : prog A) (g : A -> B) : R A p p -> R B (x <- p ;; Ret (g x)) (x <- p ;; Ret (g x)).
  Proof. intros H. apply R_bind; [exact H|intros; apply R_ret]. Qed.

  Let R_nested A B (p : prog A) (g : A -> B) : R A p p ->
    R B (nest p g) (nest p g).
  Proof. apply R_nest. Qed.

  Let R_prim B : R _ (dec_prim B) (dec_prim B).
  Proof. unfold dec_prim. destruct (B =? 1); apply R_map; [apply R_read_byte|apply R_read]. Qed.

  Let R_tag2 A b (p0 p1 : prog A) : R A p0 p0 -> R A p1 p1 ->
    R A (match Byte.to_N b with 0 => p0 | 1 => p1 | _ => Fail end) (match Byte.to_N b with 0 => p0 | 1 => p1 | _ => Fail end).
  Proof. intros H0 H1. destruct (Byte.to_N b) as [|[?|?|]]; [exact H0|apply R_fail..|exact H1]. Qed.

  Theorem built_dec :
    (forall t, (if strict then wf_ty t = true else True) -> R _ (dec t) (dec t)) /\
    (forall vs, (if strict then wf_vars_ty vs = true else True) -> forall b k, R _ (dec_vars vs b k) (dec_vars vs b k)).
  Proof.
    assert (Hcount: R _ (dec_compact 4) (dec_compact 4)) by (apply R_compact; destruct strict; [exact okwidth4|exact I]).
    apply ty_variants_ind; cbn [wf_ty wf_vars_ty dec dec_vars].
    - (* TUnit *) intros _. apply R_ret.
    - (* TBool *) intros _. apply R_bind; [apply R_read_byte|]. intros b. apply R_tag2; apply R_ret.
    - (* TPrim *) intros B _. apply R_map, R_prim.
    - (* TCompact *) intros B HB. apply R_map, R_compact. exact (weaken _ _ (okB_okwidth B) HB).
    - (* TNonZero *) intros B _. apply R_bind; [apply R_prim|]. intros n. destruct (n =? 0); [apply R_fail|apply R_ret].
    - (* TOption *) intros t IH Ht. apply R_bind; [apply R_read_byte|]. intros b.
      apply R_tag2; [apply R_ret|apply R_map, IH, Ht].
    - (* TResult *) intros t IHt e IHe H. apply R_bind; [apply R_read_byte|]. intros b.
      apply R_tag2; apply R_map; [apply IHt, (andl _ _ H)|apply IHe, (andr _ _ H)].
    - (* TOptionBool *) intros _. apply R_bind; [apply R_read_byte|]. intros b.
      destruct (Byte.to_N b) as [|[[?|?|]|[?|?|]|]]; try apply R_fail; apply R_ret.
    - (* TColl *) intros k sz t IH H. specialize (IH (andl _ _ H)).
      apply R_bind; [exact Hcount|]. intros n.
      pose proof (R_nested _ _ _ (fun l : list val => l) (built_chunked sz n _ _ IH)) as Hchunked.
      assert (Hnodes: forall a (g : list val -> val), R _ (nest (emit (HAlloc a) ;;; rep n (node sz (dec t))) g) (nest (emit (HAlloc a) ;;; rep n (node sz (dec t))) g))
        by (intros a g; apply R_nested, R_alloc, built_rep, built_node, IH).
      destruct k.
      + (* Vec *) apply R_map. destruct t; try exact Hchunked. apply R_map, R_bulk.
      + (* BinaryHeap *) apply R_map. destruct t; try exact Hchunked. apply R_map, R_bulk.
      + (* LinkedList *) apply Hnodes.
      + (* BTreeSet *) apply Hnodes.
      + (* BTreeMap *) apply Hnodes.
    - (* TStr *) intros _. apply R_bind; [exact Hcount|]. intros n.
      apply R_bind; [apply R_bulk|]. intros bs. destruct (utf8_valid bs); [apply R_ret|apply R_fail].
    - (* TArray *) intros n t IH Ht. pose proof (R_map _ _ _ VSeq (built_rep _ _ _ n (IH Ht))) as Hgen.
      destruct t; try exact Hgen. apply R_map, R_read.
    - (* TPair *) intros a IHa b IHb H. apply R_bind; [apply IHa, (andl _ _ H)|]. intros x. apply R_map, IHb, (andr _ _ H).
    - (* TBox *) intros sz t IH Ht. apply (R_nested _ _ (emit (HAlloc sz) ;;; emit (HReal sz) ;;; dec t) (fun v => v)), R_alloc, R_real, IH, Ht.
    - (* TDuration *) intros _. apply R_bind; [apply R_read|]. intros s. apply R_bind; [apply R_read|]. intros n.
      destruct (a_billion <=? le_dec n); [apply R_fail|apply R_ret].
    - (* TBits *) intros B msb. apply R_bits.
    - (* TEnum *) intros vs IH Hvs. apply R_bind; [apply R_read_byte|]. intros b. now apply IH.
    - (* VsNil *) intros _ b k. apply R_fail.
    - (* VsCons *) intros idx t IHt vs IHvs H b k.
      destruct (b =? idx mod 256); [apply R_map, IHt, (andl _ _ H)|apply IHvs, (andr _ _ H)].
  Qed.
End Built.

(* C03: every decoder returns a value or an error - never a panic, never out of fuel *)
Lemma okP_dec_compact B : okwidth B -> okP T (dec_compact B).
Proof.
  intros HB known bs. destruct (compact_dec_no_panic B known bs HB) as [H1 H2].
  destruct (runo (dec_compact B) known bs); unfold T; auto.
Qed.

Lemma okP_bulk B n : okP (fun bs => length bs = N.to_nat (n * B)) (bulk_bytes B n).
Proof.
  intros known bs. pose proof (bulk_spec_any B n known bs) as H. unfold rd in H.
  destruct (runo (bulk_bytes B n) known bs); destruct (avail (n * B) bs) eqn:Ha; try discriminate; [|exact I].
  injection H as -> _. rewrite firstn_length. apply avail_true_len in Ha. lia.
Qed.

(* the bit-sequence assert cannot fire: the words read hold at least the announced number of bits *)
Lemma okP_bits B msb : okB B && (B <=? 8) = true -> okP T (dec (TBits B msb)).
Proof.
  intros H. apply andb_prop in H as [HB _]. pose proof (okB_pos B HB) as HBp. cbn [dec].
  eapply okP_bind; [apply okP_dec_compact, okwidth4|]. intros bits _.
  destruct (2 ^ 29 - 1 <? bits); [apply okP_fail|].
  eapply okP_bind; [apply okP_bulk|]. intros bs Hbs. cbv zeta.
  assert (Hlen: N.of_nat (length (concat (map (chunk_of_word B msb) (words B bs)))) = (bits + 8 * B - 1) / (8 * B) * (8 * B)).
  { rewrite (concat_map_length _ (N.to_nat (8 * B))) by apply chunk_of_word_len.
    rewrite (words_len B bs ((bits + 8 * B - 1) / (8 * B))) by (lia || exact Hbs). lia. }
  rewrite Hlen. destruct (N.ltb_spec ((bits + 8 * B - 1) / (8 * B) * (8 * B)) bits) as [Hlt|_]; [|now apply okP_ret].
  lia.
Qed.

Theorem dec_total_mut :
  (forall t, wf_ty t = true -> okP T (dec t)) /\
  (forall vs, wf_vars_ty vs = true -> forall b k, okP T (dec_vars vs b k)).
Proof.
  apply built_dec with (R := fun A p _ => okP T p) (strict := true); intros.
  - (* ret *) now apply okP_ret.
  - (* bind *) eapply okP_bind; eauto.
  - (* alloc: a hook is invisible to runo *) assumption.
  - (* real *) assumption.
  - (* fail *) apply okP_fail.
  - (* nest *) eapply okP_bind; [apply okP_emit|]. intros _ _. eapply okP_bind; [eassumption|]. intros v _.
    eapply okP_bind; [apply okP_emit|]. intros _ _. now apply okP_ret.
  - (* read_byte *) apply okP_read_byte.
  - (* read *) eapply okP_top, okP_read.
  - (* compact *) apply okP_dec_compact; auto.
  - (* bulk *) eapply okP_top, okP_bulk.
  - (* bits *) apply okP_bits; auto.
Qed.

Theorem dec_total t known bs : wf_ty t = true ->
  runo (dec t) known bs <> OPanic /\ runo (dec t) known bs <> ONoFuel.
Proof. intros H. exact (okP_no_panic (proj1 dec_total_mut t H) known bs). Qed.

(* C08 (model level): the verdict, value and consumption do not depend on whether the
   input can report its remaining length *)
Lemma keq_dec_compact B : okwidth B -> keq (dec_compact B).
Proof. intros HB bs. now rewrite !dec_compact_spec. Qed.

Lemma keq_bulk B n : keq (bulk_bytes B n).
Proof. intros bs. now rewrite !bulk_spec_any. Qed.

Lemma dec_keq :
  (forall t, wf_ty t = true -> keq (dec t)) /\
  (forall vs, wf_vars_ty vs = true -> forall b k, keq (dec_vars vs b k)).
Proof.
  apply built_dec with (R := fun A p _ => keq p) (strict := true); intros.
  - (* ret *) apply keq_ret.
  - (* bind *) now apply keq_bind.
  - (* alloc *) now apply keq_emit.
  - (* real *) now apply keq_emit.
  - (* fail *) apply keq_fail.
  - (* nest *) apply keq_emit, keq_bind; [assumption|]. intros v. apply keq_emit, keq_ret.
  - (* read_byte *) apply keq_read_byte. intros b. apply keq_ret.
  - (* read *) apply keq_read. intros b. apply keq_ret.
  - (* compact *) apply keq_dec_compact; auto.
  - (* bulk *) apply keq_bulk.
  - (* bits *) cbn [dec]. apply keq_bind; [apply keq_dec_compact, okwidth4|]. intros bits.
    destruct (_ <? bits); [apply keq_fail|]. apply keq_bind; [apply keq_bulk|]. intros bs0. cbv zeta.
    destruct (_ <? bits); [apply keq_crash|apply keq_ret].
Qed.

Theorem dec_known_irrelevant t bs : wf_ty t = true ->
  oview (runo (dec t) true bs) = oview (runo (dec t) false bs).
Proof. intros H. apply (proj1 dec_keq t H). Qed.

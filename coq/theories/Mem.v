(* C12, the value side: what the memory tracker sees of a trace (the sizes announced to it), the
   closed form [ann] of what decoding an encoding announces (that it does: CodecRt.dec_yields), and
   that ann covers at least half of the heap payload. *)
Require Import Scale.Bytes Scale.Prog Scale.ProgFacts Scale.ProgMore Scale.TraceEq Scale.Monitors Scale.Codec Scale.CodecEnc Scale.CodecDec.

Fixpoint asum (evs : list event) : N :=
  match evs with
  | [] => 0
  | EHook (HAlloc n) :: r => n + asum r
  | _ :: r => asum r
  end.
Lemma asum_app a b : asum (a ++ b) = asum a + asum b.
Proof. induction a as [|e a IH]; cbn [app asum]; [lia|]. destruct e as [n|[| |n|n]]; lia. Qed.

(* below the saturation point the tracker's usage is the plain sum *)
Lemma used_after_asum evs : forall u, u + asum evs <= usize_max -> used_after u evs = u + asum evs.
Proof.
  induction evs as [|e r IH]; intros u H; cbn [used_after asum] in *; [lia|].
  destruct e as [n|[| |n|n]]; try (now apply IH).
  unfold sat_add. rewrite N.min_r by lia. rewrite IH by lia. lia.
Qed.

Definition atr {A} (p : prog A) known bs : N := asum (snd (runt p known bs)).

Lemma atr_bind_ok A B (p : prog A) (f : A -> prog B) known bs a r :
  runo p known bs = OOk a r -> atr (bindp p f) known bs = atr p known bs + atr (f a) known r.
Proof. intros H. unfold atr. rewrite (runt_bind_ok f H). apply asum_app. Qed.
Arguments atr_bind_ok {A B p} f {known bs a r}.
Lemma bind_ok_inv A B (p : prog A) (f : A -> prog B) known bs b r :
  runo (bindp p f) known bs = OOk b r -> exists a r', runo p known bs = OOk a r' /\ runo (f a) known r' = OOk b r.
Proof. rewrite runo_bind. destruct (runo p known bs) as [a r'|r'| |]; try discriminate. eauto. Qed.
Lemma atr_emit A h (p : prog A) known bs : atr (emit h ;;; p) known bs = asum [EHook h] + atr p known bs.
Proof. apply (asum_app [EHook h]). Qed.
Lemma runt_emit A h (p : prog A) known bs :
  runt (emit h ;;; p) known bs = (fst (runt p known bs), EHook h :: snd (runt p known bs)).
Proof. reflexivity. Qed.
Lemma atr_ret A (a : A) known bs : atr (Ret a) known bs = 0.
Proof. reflexivity. Qed.
Lemma atr_read_byte A (k : byte -> prog A) known b bs :
  atr (x <- read_byte ;; k x) known (b :: bs) = atr (k b) known bs.
Proof. reflexivity. Qed.
Lemma seq_atr A (p q : prog A) known bs a r :
  seq asum p q -> runo p known bs = OOk a r -> atr p known bs = atr q known bs.
Proof. intros H E. destruct (H known bs) as [_ H2]. apply H2. rewrite runt_fst, E. reflexivity. Qed.

Definition is_alloc (e : event) : bool := match e with EHook (HAlloc _) => true | _ => false end.
Lemma asum_filter evs : asum (filter is_alloc evs) = asum evs.
Proof. induction evs as [|e r IH]; [reflexivity|]. destruct e as [n|[| |n|n]]; cbn [filter is_alloc asum]; now rewrite ?IH. Qed.
Lemma silent_atr A (p : prog A) known bs : silent is_alloc p -> atr p known bs = 0.
Proof. intros H. unfold atr. now rewrite <- asum_filter, (silent_filter is_alloc A p (fun _ => eq_refl) H). Qed.

(* programs whose every successful run announces the same total *)
Definition csum {A} (p : prog A) (w : N) : Prop :=
  forall known bs a r, runo p known bs = OOk a r -> atr p known bs = w.
Lemma csum_silent A (p : prog A) : silent is_alloc p -> csum p 0.
Proof. intros H known bs a r _. now apply silent_atr. Qed.
Lemma csum_ret A (a : A) : csum (Ret a) 0.
Proof. intros known bs x r _. reflexivity. Qed.
Lemma csum_bind A B (p : prog A) (f : A -> prog B) w1 w2 :
  csum p w1 -> (forall a, csum (f a) w2) -> csum (bindp p f) (w1 + w2).
Proof.
  intros Hp Hf known bs b r H. apply bind_ok_inv in H as (a & r' & H1 & H2).
  rewrite (atr_bind_ok f H1), (Hp known bs a r' H1), (Hf a known r' b r H2). reflexivity.
Qed.
Lemma csum_rep_nat A (c : prog A) w n : csum c w -> csum (rep_nat n c) (N.of_nat n * w).
Proof.
  intros Hc. induction n as [|n IH]; cbn [rep_nat].
  - apply csum_ret.
  - replace (N.of_nat (S n) * w) with (w + (N.of_nat n * w + 0)) by lia.
    apply csum_bind; [exact Hc|]. intros a. apply csum_bind; [exact IH|]. intros l. apply csum_ret.
Qed.
Lemma csum_rep A (c : prog A) w n : csum c w -> csum (rep n c) (n * w).
Proof.
  intros Hc known bs a r H. unfold atr. rewrite (rep_rep_nat _ c n known bs).
  rewrite (peq_runo _ _ _ (rep_rep_nat _ c n)) in H.
  rewrite <- (N2Nat.id n) at 2. apply (csum_rep_nat _ c w (N.to_nat n) Hc known bs a r H).
Qed.
Lemma csum_emit A h (p : prog A) w : csum p w -> csum (emit h ;;; p) (asum [EHook h] + w).
Proof. intros Hp known bs a r H. rewrite atr_emit. now rewrite (Hp known bs a r H). Qed.

Lemma sat_mul_chunk k sz : k <= chunk_len sz -> sat_mul k sz = k * sz.
Proof.
  intros Hk. apply sat_mul_small. etransitivity; [now apply chunk_len_mul|apply max_prealloc_usize].
Qed.

Lemma csum_two_stage A cl n (c : N -> prog (list A)) w : 0 < cl ->
  (forall k, k <= cl -> csum (c k) (k * w)) -> csum (two_stage cl n c) (n * w).
Proof.
  intros Hcl Hc. pose proof (N.div_mod n cl ltac:(lia)) as Hdm.
  rewrite two_stage_rep. replace (n * w) with ((n / cl) * (cl * w) + (n mod cl) * w) by nia.
  apply csum_bind; [apply csum_rep, Hc; lia|].
  intros full. destruct (N.eqb_spec (n mod cl) 0) as [->|E]; [apply csum_ret|].
  rewrite <- (N.add_0_r (n mod cl * w)). apply csum_bind; [apply Hc; lia|intros; apply csum_ret].
Qed.

(* the bulk path announces exactly the bytes it is about to read *)
Lemma csum_bulk B n : B <= max_prealloc -> csum (bulk_bytes B n) (n * B).
Proof.
  intros HB. rewrite <- (N.add_0_l (n * B)). apply csum_bind; [apply csum_silent; silence|]. intros _.
  apply (csum_two_stage _ (chunk_len B) n (one_bulk B)); [now apply chunk_len_pos|].
  intros k Hk. unfold one_bulk. rewrite <- (sat_mul_chunk k B Hk).
  replace (sat_mul k B) with (asum [EHook (HAlloc (sat_mul k B))] + (asum [EHook (HReal (sat_mul k B))] + 0)) at 2 by (cbn [asum]; lia).
  apply csum_emit, csum_emit, csum_silent. silence.
Qed.

Definition suml (l : list N) : N := fold_right N.add 0 l.

Fixpoint ann (t : ty) (v : val) {struct t} : N :=
  match t, v with
  | TOption t', VSome v' => ann t' v'
  | TResult t' _, VOk v' => ann t' v'
  | TResult _ e, VErr v' => ann e v'
  | TColl k sz t', VSeq l =>
      let n := N.of_nat (length l) in
      match k with
      | CVec | CHeap => match t' with TPrim B => n * B | _ => n * sz + suml (map (ann t') l) end
      | CList => n * sz + suml (map (ann t') l)
      | CSet | CMap => btree_mem sz n + suml (map (ann t') l)
      end
  | TStr, VSeq l => N.of_nat (length l)
  | TArray _ t', VSeq l => suml (map (ann t') l)
  | TPair a b, VPair x y => ann a x + ann b y
  | TBox sz t', _ => sz + ann t' v
  | TBits B _, VBits l => (N.of_nat (length l) + 8 * B - 1) / (8 * B) * B
  | TEnum vs, VVar k v' => ann_vars vs k v'
  | _, _ => 0
  end
with ann_vars (vs : variants) (k : nat) (v : val) {struct vs} : N :=
  match vs, k with
  | VsNil, _ => 0
  | VsCons _ t _, O => ann t v
  | VsCons _ _ r, S k' => ann_vars r k' v
  end.

Lemma ann_vars_at vs k i t v : variant_at vs k = Some (i, t) -> ann_vars vs k v = ann t v.
Proof. apply (vars_select ann ann_vars); reflexivity. Qed.

Lemma okB_small B : okB B = true -> B <= max_prealloc.
Proof. intros H. apply okB_pos in H. unfold max_prealloc. lia. Qed.

Lemma ann_prim_zero B l : suml (map (ann (TPrim B)) l) = 0.
Proof. induction l as [|v l IH]; cbn [map suml fold_right]; [reflexivity|]. fold (suml (map (ann (TPrim B)) l)). rewrite IH. destruct v; reflexivity. Qed.

Lemma suml_shift (f : val -> N) sz l : suml (map (fun v => sz + f v) l) = N.of_nat (length l) * sz + suml (map f l).
Proof. induction l as [|a l IH]; cbn [map suml fold_right length]; [lia|]. fold (suml (map (fun v => sz + f v) l)). fold (suml (map f l)). rewrite IH. lia. Qed.

(* payload: what the decoded value holds on the heap, counted as the property does: elements times
   element size, list nodes, boxed sizes, string bytes, summed over the nesting; for maps and sets
   an entry is at most a leaf node divided by its 11 slots *)
Fixpoint payload (t : ty) (v : val) {struct t} : N :=
  match t, v with
  | TOption t', VSome v' => payload t' v'
  | TResult t' _, VOk v' => payload t' v'
  | TResult _ e, VErr v' => payload e v'
  | TColl k sz t', VSeq l =>
      let n := N.of_nat (length l) in
      match k with
      | CVec | CHeap => match t' with TPrim B => n * B | _ => n * sz + suml (map (payload t') l) end
      | CList => n * sz + suml (map (payload t') l)
      | CSet | CMap => n * (sz / 11) + suml (map (payload t') l)
      end
  | TStr, VSeq l => N.of_nat (length l)
  | TArray _ t', VSeq l => suml (map (payload t') l)
  | TPair a b, VPair x y => payload a x + payload b y
  | TBox sz t', _ => sz + payload t' v
  | TBits B _, VBits l => (N.of_nat (length l) + 8 * B - 1) / (8 * B) * B
  | TEnum vs, VVar k v' => payload_vars vs k v'
  | _, _ => 0
  end
with payload_vars (vs : variants) (k : nat) (v : val) {struct vs} : N :=
  match vs, k with
  | VsNil, _ => 0
  | VsCons _ t _, O => payload t v
  | VsCons _ _ r, S k' => payload_vars r k' v
  end.

Lemma payload_vars_at vs k i t v : variant_at vs k = Some (i, t) -> payload_vars vs k v = payload t v.
Proof. apply (vars_select payload payload_vars); reflexivity. Qed.

(* mem_size_of_btree covers at least half of the entries' memory, a leaf node holding 11 of them:
   up to 9 entries fit the one announced leaf; from 10 on, n <= 19 * (n / 10) entries of at most
   leaf / 11 each are within 2 * (n / 10) * leaf; the bounds on leaf and n keep sat_mul from saturating *)
Lemma btree_estimate_half leaf entry n : 11 * entry <= leaf -> leaf + 96 <= 2 ^ 31 -> n < 2 ^ 32 ->
  n * entry <= 2 * btree_mem leaf n.
Proof.
  intros Hl Hm Hn. unfold btree_mem. change (2 ^ 31) with 2147483648 in Hm. change (2 ^ 32) with 4294967296 in Hn.
  destruct (N.eqb_spec n 0) as [->|Hn0]; [lia|].
  pose proof (N.div_mod n 10 ltac:(lia)) as Hd. pose proof (N.mod_lt n 10 ltac:(lia)) as Hr.
  set (q := n / 10) in *. set (r := n mod 10) in *. clearbody q r.
  destruct (N.eqb_spec q 0) as [->|Hq].
  - assert (n * entry <= 9 * entry) by (apply N.mul_le_mono_r; lia). lia.
  - assert (H1: n * entry <= 19 * q * entry) by (apply N.mul_le_mono_r; lia).
    assert (H2: q * (11 * entry) <= q * leaf) by (apply N.mul_le_mono_l; lia).
    assert (H3: q * (leaf + 96) <= 4294967296 * 2147483648) by (apply N.mul_le_mono; lia).
    rewrite sat_mul_small by (unfold usize_max, u64max; lia). lia.
Qed.

Lemma btree_half sz n : sz <= max_prealloc -> n <= u32max -> n * (sz / 11) <= 2 * btree_mem sz n.
Proof.
  unfold max_prealloc, u32max. intros Hsz Hn.
  apply btree_estimate_half; [apply N.mul_div_le|change (2 ^ 31) with 2147483648|change (2 ^ 32) with 4294967296]; lia.
Qed.

Lemma prim_or_le (t : ty) (x : N -> N) y y' : y <= 2 * y' ->
  match t with TPrim B => x B | _ => y end <= 2 * match t with TPrim B => x B | _ => y' end.
Proof. intros H. destruct t; lia. Qed.

Theorem payload_enc :
  (forall t v bs, Enc t v bs -> wf_ty t = true -> payload t v <= 2 * ann t v) /\
  (forall t l bs, Encs t l bs -> wf_ty t = true -> suml (map (payload t) l) <= 2 * suml (map (ann t) l)).
Proof.
  (* but for the cases below, both sides are the same expression or the induction hypothesis says it *)
  apply Enc_Encs_ind; cbn [payload ann wf_ty map suml fold_right]; try (intros; lia).
  - (* collections *) intros k sz t l bs _ IH Hn _ H. apply andb_prop in H as [Ht Hsz]. apply N.leb_le in Hsz.
    specialize (IH Ht). pose proof (btree_half sz (N.of_nat (length l)) Hsz Hn).
    destruct k; try lia; apply prim_or_le; lia.
  - (* enum *) intros vs k i t v bs _ Hat _ IH Hvs.
    rewrite (payload_vars_at vs k i t v Hat), (ann_vars_at vs k i t v Hat).
    apply IH, (variant_at_wf vs Hvs k i t Hat).
  - (* an item and the rest *) intros t v l b bs _ IHv _ IHl Ht. specialize (IHv Ht). specialize (IHl Ht). unfold suml in IHl. lia.
Qed.

Theorem payload_within_twice_announced t v : wf_ty t = true -> wf t v = true -> payload t v <= 2 * ann t v.
Proof. intros Ht Hw. destruct (proj1 wf_view_mut t v Hw) as (bs & E & _). exact (proj1 payload_enc t v bs E Ht). Qed.

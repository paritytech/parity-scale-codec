(* Hex string literals -> byte lists, byte-list equality, and the runner of the generated
   correspondence cases ([failures]: the indices of the cases a checker rejects). *)
Require Import Scale.Bytes.
From Coq Require Export String Ascii.

Definition hexval (c : ascii) : N :=
  let n := N_of_ascii c in
  if (48 <=? n) && (n <=? 57) then n - 48
  else if (97 <=? n) && (n <=? 102) then n - 87
  else if (65 <=? n) && (n <=? 70) then n - 55
  else 0.

Fixpoint hex (s : string) : list byte :=
  match s with
  | String a (String b r) => byte_of (16 * hexval a + hexval b) :: hex r
  | _ => []
  end.

Fixpoint bytes_eqb (a b : list byte) : bool :=
  match a, b with
  | [], [] => true
  | x :: a', y :: b' => Byte.eqb x y && bytes_eqb a' b'
  | _, _ => false
  end.

Lemma bytes_eqb_eq a b : bytes_eqb a b = true <-> a = b.
Proof.
  revert b; induction a as [|x a IH]; intros [|y b]; cbn [bytes_eqb]; split; try discriminate; auto.
  - intros H. apply andb_prop in H as [H1 H2]. apply Byte.byte_dec_bl in H1. apply IH in H2. now subst.
  - intros [= -> ->]. apply andb_true_intro. split; [apply Byte.byte_dec_lb; reflexivity|now apply IH].
Qed.

(* indices (from 0) of the cases a checker rejects *)
Fixpoint failures_from {A} (chk : A -> bool) (i : N) (l : list A) : list N :=
  match l with
  | [] => []
  | c :: r => if chk c then failures_from chk (i + 1) r else i :: failures_from chk (i + 1) r
  end.
Definition failures {A} (chk : A -> bool) (l : list A) : list N := failures_from chk 0 l.

(* C09: heap reservations made while decoding (HReal events) are bounded by a linear function
   of the number of input bytes read, plus a fixed allowance - never by a claimed count.
   [abound s f r w p]: on every input, the reservations of p are at most r * (bytes read) + s
   when p succeeds (and then it has read at least w bytes) and at most r * (bytes read) + f
   when it fails. *)
Require Import Scale.Bytes Scale.Prog Scale.ProgFacts Scale.ProgMore.

Fixpoint real_sum (evs : list event) : N :=
  match evs with
  | [] => 0
  | EHook (HReal n) :: r => n + real_sum r
  | _ :: r => real_sum r
  end.

Lemma real_sum_app a b : real_sum (a ++ b) = real_sum a + real_sum b.
Proof. induction a as [|e a IH]; cbn [app real_sum]; [lia|]. destruct e as [n|[| |n|n]]; lia. Qed.

Definition abound {A} (s f r w : N) (p : prog A) : Prop :=
  forall known bs,
    match runt p known bs with
    | (OOk _ _, evs) => real_sum evs <= r * sum_reads evs + s /\ w <= sum_reads evs
    | (OErr _, evs) => real_sum evs <= r * sum_reads evs + f
    | (_, _) => True
    end.

Lemma abound_weaken A (p : prog A) s f r w s' f' r' w' :
  abound s f r w p -> s <= s' -> f <= f' -> r <= r' -> w' <= w -> abound s' f' r' w' p.
Proof.
  intros H Hs Hf Hr Hw known bs. specialize (H known bs).
  destruct (runt p known bs) as [[a rest|rest| |] evs]; auto;
    pose proof (N.mul_le_mono_r r r' (sum_reads evs) Hr); lia.
Qed.

Lemma abound_free A (p : prog A) s f r w : abound 0 0 0 w p -> abound s f r w p.
Proof. intros H. eapply abound_weaken; [exact H|lia ..]. Qed.

Lemma abound_ret A (a : A) s f r : abound s f r 0 (Ret a).
Proof. intros known bs. cbn. lia. Qed.
Lemma abound_fail A s f r w : abound s f r w (@Fail A).
Proof. intros known bs. cbn. lia. Qed.
Lemma abound_crash A : abound 0 0 0 0 (@Crash A).
Proof. intros known bs. exact I. Qed.

Lemma abound_read n : abound 0 0 0 n (read n).
Proof. intros known bs. cbn [read runt]. destruct (avail n bs); cbn [cons_ev fst snd real_sum sum_reads]; lia. Qed.
Lemma abound_read_byte : abound 0 0 0 1 read_byte.
Proof. intros known bs. cbn [read_byte runt]. destruct bs; cbn [cons_ev fst snd real_sum sum_reads]; lia. Qed.
Lemma abound_need n : abound 0 0 0 0 (need n).
Proof. intros known bs. cbn [need runt]. destruct (known && negb (avail n bs)); cbn; lia. Qed.
Lemma abound_emit h : abound (real_sum [EHook h]) 0 0 0 (emit h).
Proof. intros known bs. cbn [emit runt cons_ev fst snd sum_reads]. lia. Qed.

Lemma abound_bind A B (p : prog A) (g : A -> prog B) s1 f1 r1 w1 s2 f2 r2 w2 :
  abound s1 f1 r1 w1 p -> (forall a, abound s2 f2 r2 w2 (g a)) ->
  abound (s1 + s2) (N.max f1 (s1 + f2)) (N.max r1 r2) (w1 + w2) (bindp p g).
Proof.
  intros Hp Hg known bs. rewrite runt_bind. specialize (Hp known bs).
  (* of the joint rate m only that it is at least r1 and r2 *)
  generalize (N.le_max_l r1 r2) (N.le_max_r r1 r2). generalize (N.max r1 r2). intros m M1 M2.
  destruct (runt p known bs) as [[a rest|rest| |] evs1]; auto;
    pose proof (N.mul_le_mono_r _ _ (sum_reads evs1) M1); [|lia].
  specialize (Hg a known rest).
  destruct (runt (g a) known rest) as [[b rest'|rest'| |] evs2]; cbn [fst snd]; auto;
    rewrite real_sum_app, sum_reads_app; pose proof (N.mul_le_mono_r _ _ (sum_reads evs2) M2); lia.
Qed.

(* bind without arithmetic: after a p with s = 0 the allowances are those of what follows *)
Lemma abound_then A B (p : prog A) (g : A -> prog B) s f r w :
  abound 0 f r w p -> (forall a, abound s f r 0 (g a)) -> abound s f r w (bindp p g).
Proof. intros Hp Hg. eapply abound_weaken; [apply abound_bind; [exact Hp|exact Hg]|lia ..]. Qed.

Lemma abound_prefix A B (p : prog A) (g : A -> prog B) s f r w :
  abound 0 0 0 w p -> (forall a, abound s f r 0 (g a)) -> abound s f r w (bindp p g).
Proof. intros Hp Hg. apply abound_then; [apply abound_free, Hp|exact Hg]. Qed.

(* a continuation that cannot fail leaves the failure allowance alone *)
Lemma abound_emit_ret A B h (p : prog A) (g : A -> B) s f r w :
  abound s f r w p -> abound (s + real_sum [EHook h]) f r w (x <- p ;; emit h ;;; Ret (g x)).
Proof.
  intros H known bs. rewrite runt_bind. specialize (H known bs).
  destruct (runt p known bs) as [[a rest|rest| |] evs]; auto.
  cbn [emit bindp runt cons_ev fst snd]. rewrite real_sum_app, sum_reads_app. cbn [sum_reads]. lia.
Qed.

Lemma abound_map A B (p : prog A) (g : A -> B) s f r w :
  abound s f r w p -> abound s f r w (x <- p ;; Ret (g x)).
Proof.
  intros H known bs. rewrite runt_bind. specialize (H known bs).
  destruct (runt p known bs) as [[a rest|rest| |] evs]; auto.
  cbn [runt fst snd]. now rewrite app_nil_r.
Qed.

(* hooks other than HReal are invisible *)
Lemma abound_hook A h (p : prog A) s f r w :
  real_sum [EHook h] = 0 -> abound s f r w p -> abound s f r w (emit h ;;; p).
Proof. intros E H. eapply abound_weaken; [apply abound_bind; [apply abound_emit|intros _; exact H]|lia ..]. Qed.
Lemma abound_hook_ret A B h (p : prog A) (g : A -> B) s f r w :
  real_sum [EHook h] = 0 -> abound s f r w p -> abound s f r w (x <- p ;; emit h ;;; Ret (g x)).
Proof. intros E H. eapply abound_weaken; [apply abound_emit_ret, H|lia ..]. Qed.

Lemma abound_reserve A n (p : prog A) s f r w :
  abound s f r w p -> abound (n + s) (n + f) r w (emit (HReal n) ;;; p).
Proof.
  intros H. eapply abound_weaken; [apply abound_bind; [apply abound_emit|intros _; exact H]|cbn [real_sum]; lia ..].
Qed.

Lemma abound_max_l A (p : prog A) s f r w s' f' r' :
  abound s f r w p -> abound (N.max s s') (N.max f f') (N.max r r') 0 p.
Proof. intros H. eapply abound_weaken; [exact H|lia ..]. Qed.
Lemma abound_max_r A (p : prog A) s f r w s' f' r' :
  abound s f r w p -> abound (N.max s' s) (N.max f' f) (N.max r' r) 0 p.
Proof. intros H. eapply abound_weaken; [exact H|lia ..]. Qed.

(* the idea of the data-dependent cases: a success that has read w bytes may charge its
   allowance to them, q per byte *)
Lemma abound_amortize A (p : prog A) s f r w q :
  abound s f r w p -> s <= q * w -> abound 0 f (r + q) w p.
Proof.
  intros H Hq known bs. specialize (H known bs).
  destruct (runt p known bs) as [[a rest|rest| |] evs]; auto; [|lia].
  destruct H as [H W]. pose proof (N.mul_le_mono_l _ _ q W). lia.
Qed.

Lemma abound_peq A (p q : prog A) s f r w : peq p q -> abound s f r w q -> abound s f r w p.
Proof. intros H Hq known bs. rewrite (H known bs). apply Hq. Qed.

(* repetition: n successes use n * s; F bounds a failure after any number of them *)
Lemma abound_rep A (c : prog A) s f r w (F : N -> N) n :
  abound s f r w c -> (forall k, N.max f (s + F k) <= F (N.succ k)) ->
  abound (n * s) (F n) r (n * w) (rep n c).
Proof.
  intros Hc HF. eapply abound_peq; [apply rep_rep_nat|].
  induction n as [|n IH] using N.peano_ind; [|rewrite N2Nat.inj_succ]; cbn [N.to_nat rep_nat].
  - apply abound_ret.
  - specialize (HF n). eapply abound_weaken; [apply abound_bind; [exact Hc|intros a; apply abound_map, IH]|lia ..].
Qed.

(* a fixed number of repetitions: the allowance is paid per repetition *)
Lemma abound_rep_static A (c : prog A) s f r w n : abound s f r w c ->
  abound (n * s) (n * N.max s f) r (n * w) (rep n c).
Proof. intros Hc. eapply abound_rep with (F := fun k => k * N.max s f); [exact Hc|lia]. Qed.

Lemma abound_rep_zero A (c : prog A) f r w n : abound 0 f r w c -> abound 0 f r (n * w) (rep n c).
Proof. intros Hc. eapply abound_weaken; [eapply abound_rep with (F := fun _ => f); [exact Hc|lia]|lia ..]. Qed.

(* a data-dependent number of repetitions of an element that reads at least one byte when it
   succeeds: what a completed element reserved beyond r*read is charged to the byte it read *)
Lemma abound_rep_dyn A (c : prog A) s f r w n : 1 <= w -> abound s f r w c ->
  abound 0 f (r + s) (n * w) (rep n c).
Proof. intros Hw Hc. eapply abound_rep_zero, abound_amortize; [exact Hc|nia]. Qed.

Lemma abound_two_stage A (c : N -> prog (list A)) f r cl n :
  0 < cl -> (forall k, k <= cl -> abound 0 f r 0 (c k)) ->
  abound 0 f r 0 (two_stage cl n c).
Proof.
  intros Hcl Hc. rewrite two_stage_rep. apply abound_then.
  - eapply abound_weaken; [apply abound_rep_zero, Hc, N.le_refl|lia ..].
  - intros full. destruct (n mod cl =? 0); [apply abound_ret|].
    apply abound_map, Hc, N.lt_le_incl, N.mod_lt. lia.
Qed.

(* programs that make no reservation at all *)
Definition is_real (e : event) : bool := match e with EHook (HReal _) => true | _ => false end.

Lemma real_sum_filter evs : real_sum (filter is_real evs) = real_sum evs.
Proof. induction evs as [|e r IH]; [reflexivity|]. destruct e as [n|[| |n|n]]; cbn [filter is_real real_sum]; now rewrite ?IH. Qed.
Lemma silent_abound A (p : prog A) : silent is_real p -> abound 0 0 0 0 p.
Proof.
  intros H known bs. pose proof (real_sum_filter (snd (runt p known bs))) as Hz.
  rewrite (silent_filter is_real A p (fun _ => eq_refl) H) in Hz.
  destruct (runt p known bs) as [[a r|r| |] evs]; cbn [snd filter real_sum] in Hz; auto; lia.
Qed.

Lemma silent_abound_byte A (k : byte -> prog A) : silent is_real (ReadByte k) -> abound 0 0 0 1 (ReadByte k).
Proof.
  intros H. apply abound_prefix with (p := read_byte) (g := k); [apply abound_read_byte|]. intros b. apply silent_abound, H.
Qed.

(* what is read never exceeds the input *)
Lemma reads_le_input A (p : prog A) known bs : sum_reads (snd (runt p known bs)) <= N.of_nat (length bs) \/
  (match fst (runt p known bs) with OPanic | ONoFuel => True | _ => False end).
Proof.
  pose proof (reads_account A p known bs) as H. destruct (runt p known bs) as [[a r|r| |] evs]; cbn [fst snd]; auto; left; lia.
Qed.

(* hence a bound in terms of the input alone, for a program that neither panics nor runs out of fuel *)
Lemma abound_input A (p : prog A) s f r w known bs : abound s f r w p ->
  match fst (runt p known bs) with
  | OPanic | ONoFuel => True
  | _ => real_sum (snd (runt p known bs)) <= r * N.of_nat (length bs) + N.max s f
  end.
Proof.
  intros H. specialize (H known bs). pose proof (reads_le_input A p known bs) as Hr.
  destruct (runt p known bs) as [[a rest|rest| |] evs]; cbn [fst snd] in *; auto;
    destruct Hr as [Hr|[]]; apply (N.mul_le_mono_l _ _ r) in Hr; lia.
Qed.

(* What the two limiting wrappers see of a successful run, as one judgement.
   [yields p known bs a rest d m]: on input bs, p returns a and leaves rest; the descend/ascend
   events of its trace are balanced and nest d deep (what DepthTrackingInput bounds) and the sizes
   it announces sum to m (what MemTrackingInput bounds).  The rules below compose it along the
   decoder combinators; [veq] is the program equivalence that preserves it. *)
Require Import Scale.Bytes Scale.Prog Scale.ProgFacts Scale.ProgMore Scale.TraceEq Scale.Chunks Scale.Monitors Scale.Codec
  Scale.CodecDec Scale.Depth Scale.Mem.

Definition yields {A} (p : prog A) known bs (a : A) rest (d m : N) : Prop :=
  runo p known bs = OOk a rest /\ bal (dtr p known bs) d /\ atr p known bs = m.

Lemma yields_eq {A} {p : prog A} {known bs a rest} d m {d' m'} :
  yields p known bs a rest d m -> d = d' -> m = m' -> yields p known bs a rest d' m'.
Proof. now intros H <- <-. Qed.

Lemma yields_runo {A} {p : prog A} {known bs a rest d m} : yields p known bs a rest d m -> runo p known bs = OOk a rest.
Proof. now intros (H & _). Qed.
Lemma yields_asum {A} {p : prog A} {known bs a rest d m} : yields p known bs a rest d m -> asum (snd (runt p known bs)) = m.
Proof. now intros (_ & _ & H). Qed.

Lemma yields_ret A (a : A) known bs : yields (Ret a) known bs a bs 0 0.
Proof. split; [reflexivity|split; [apply bal_nil|reflexivity]]. Qed.

Lemma yields_bind A B (p : prog A) (f : A -> prog B) known bs a r b r' d1 m1 d2 m2 :
  yields p known bs a r d1 m1 -> yields (f a) known r b r' d2 m2 ->
  yields (bindp p f) known bs b r' (N.max d1 d2) (m1 + m2).
Proof.
  intros (Ho & Hd & Hm) (Ho' & Hd' & Hm'). split; [|split].
  - now rewrite runo_bind, Ho.
  - rewrite (dtr_bind_ok f Ho). now apply bal_app.
  - rewrite (atr_bind_ok f Ho). now subst.
Qed.

Lemma yields_map {A B} {p : prog A} (g : A -> B) {known bs a r d m} :
  yields p known bs a r d m -> yields (x <- p ;; Ret (g x)) known bs (g a) r d m.
Proof. intros H. eapply yields_eq; [eapply yields_bind; [exact H|apply yields_ret]|lia|lia]. Qed.

Lemma yields_rep_S A (c : prog A) k known bs a r l r' d dl m ml :
  yields c known bs a r d m -> yields (rep_nat k c) known r l r' dl ml ->
  yields (rep_nat (S k) c) known bs (a :: l) r' (N.max d dl) (m + ml).
Proof. intros Ha Hl. apply (yields_bind _ _ c _ known bs a r); [exact Ha|]. now apply (yields_map (cons a)). Qed.

(* a prefix that neither nests nor announces: the reads of tags, counts and primitives *)
Lemma yields_pre A B (p : prog A) (f : A -> prog B) known bs a r b r' d m :
  silent is_depth p -> silent is_alloc p -> runo p known bs = OOk a r ->
  yields (f a) known r b r' d m -> yields (bindp p f) known bs b r' d m.
Proof.
  intros Hd Ha Ho H. apply (yields_eq (N.max 0 d) (0 + m)); [|lia|lia].
  apply (yields_bind _ _ p f known bs a r); [|exact H].
  split; [exact Ho|]. rewrite silent_dtr, silent_atr by assumption. split; [apply bal_nil|reflexivity].
Qed.
Lemma yields_tag A (k : byte -> prog A) known b bs a r d m :
  yields (k b) known bs a r d m -> yields (x <- read_byte ;; k x) known (b :: bs) a r d m.
Proof. apply yields_pre; (silence || reflexivity). Qed.
Lemma yields_read A n (k : list byte -> prog A) known x bs a r d m : length x = N.to_nat n ->
  yields (k x) known bs a r d m -> yields (y <- read n ;; k y) known (x ++ bs) a r d m.
Proof. intros Hl. apply yields_pre; [silence|silence|now apply rt_read]. Qed.

Lemma yields_alloc A n (p : prog A) known bs a r d m :
  yields p known bs a r d m -> yields (emit (HAlloc n) ;;; p) known bs a r d (n + m).
Proof. intros (Ho & Hd & Hm). split; [exact Ho|split; [exact Hd|]]. rewrite atr_emit, Hm. cbn [asum]. lia. Qed.
Lemma yields_real A n (p : prog A) known bs a r d m :
  yields p known bs a r d m -> yields (emit (HReal n) ;;; p) known bs a r d m.
Proof. intros H. exact H. Qed.

Lemma yields_nest A B (p : prog A) (g : A -> B) known bs a r d m :
  yields p known bs a r d m -> yields (nest p g) known bs (g a) r (1 + d) m.
Proof.
  intros (Ho & Hd & Hm). unfold nest. split; [|split].
  - now rewrite oeq_emit, runo_bind, Ho.
  - rewrite dtr_emit, (dtr_bind_ok _ Ho). now apply bal_wrap.
  - rewrite atr_emit, (atr_bind_ok _ Ho), Hm. cbn. lia.
Qed.

(* the equivalence that preserves the judgement: same descend/ascend pattern and, on success, same announced total *)
Definition vis (ok : bool) (a b : list event) : Prop := dpi a = dpi b /\ (ok = true -> asum a = asum b).
Lemma tcong_vis : tcong vis.
Proof. exact (tcong_and _ _ (tcong_proj dpi dpi_app) (tcong_meas asum asum_app)). Qed.
Notation veq := (req vis).

Lemma yields_veq A (p q : prog A) known bs a r d m : veq p q -> yields q known bs a r d m -> yields p known bs a r d m.
Proof.
  intros H (Ho & Hd & Hm). destruct (H known bs) as (E1 & E2 & E3). rewrite !runt_fst in *. rewrite <- E1 in Ho.
  split; [exact Ho|split; [unfold dtr; now rewrite E2|]]. unfold atr in *. rewrite E3; [exact Hm|now rewrite Ho].
Qed.

Lemma yields_rep_of_nat A (c : prog A) k known bs l r d m :
  yields (rep_nat k c) known bs l r d m -> yields (rep (N.of_nat k) c) known bs l r d m.
Proof. apply yields_veq. rewrite <- (Nat2N.id k) at 2. apply (peq_req _ tcong_vis), rep_rep_nat. Qed.

Lemma veq_trans A (p q r : prog A) : veq p q -> veq q r -> veq p r.
Proof.
  intros H1 H2 known bs. destruct (H1 known bs) as (E1 & D1 & S1), (H2 known bs) as (E2 & D2 & S2).
  split; [congruence|split; [congruence|]]. intros Hok. rewrite S1, S2; congruence.
Qed.

(* an announcement may be made after p instead of before it: the total of a successful run is the
   same, and on a failed one totals are not compared *)
Lemma veq_alloc_late A B y (p : prog A) (f : A -> prog B) :
  veq (emit (HAlloc y) ;;; (a <- p ;; f a)) (a <- p ;; emit (HAlloc y) ;;; f a).
Proof.
  intros known bs. cbn [emit bindp runt]. rewrite !runt_bind.
  destruct (runt p known bs) as [[a r|r| |] e1]; try (repeat split; discriminate).
  cbn [runt]. destruct (runt (f a) known r) as [o e2]. cbn [cons_ev fst snd]. split; [reflexivity|split].
  - change (dpi (e1 ++ e2) = dpi (e1 ++ EHook (HAlloc y) :: e2)). now rewrite !dpi_app.
  - intros _. cbn [asum]. rewrite !asum_app. cbn [asum]. lia.
Qed.

(* k elements after one announcement of k * x: as k elements each announcing x *)
Lemma announce_rep_nat A (c : prog A) x k :
  veq (emit (HAlloc (N.of_nat k * x)) ;;; rep_nat k c) (rep_nat k (emit (HAlloc x) ;;; c)).
Proof.
  induction k as [|k IH]; [intros known bs; repeat split|].
  replace (N.of_nat (S k) * x) with (x + N.of_nat k * x) by lia. cbn [rep_nat].
  (* announce x, run c, announce the rest, go on *)
  apply veq_trans with (emit (HAlloc x) ;;; a <- c ;; emit (HAlloc (N.of_nat k * x)) ;;; l <- rep_nat k c ;; Ret (a :: l)).
  - apply veq_trans with (emit (HAlloc x) ;;; emit (HAlloc (N.of_nat k * x)) ;;; a <- c ;; l <- rep_nat k c ;; Ret (a :: l)).
    + intros known bs. cbn [emit bindp runt cons_ev fst snd]. repeat split. intros _. cbn [asum]. lia.
    + apply (req_bind _ tcong_vis); [apply (req_refl _ tcong_vis)|]. intros _. apply veq_alloc_late.
  - change (veq (a <- (emit (HAlloc x) ;;; c) ;; l <- (emit (HAlloc (N.of_nat k * x)) ;;; rep_nat k c) ;; Ret (a :: l))
                (a <- (emit (HAlloc x) ;;; c) ;; l <- rep_nat k (emit (HAlloc x) ;;; c) ;; Ret (a :: l))).
    apply (req_bind _ tcong_vis); [apply (req_refl _ tcong_vis)|]. intros a.
    apply (req_bind _ tcong_vis); [exact IH|]. intros l. apply (req_refl _ tcong_vis).
Qed.

(* decode_vec_chunked as the wrappers see it: every element announces its own size *)
Lemma veq_chunked sz n (c : prog val) : sz <= max_prealloc ->
  veq (chunked_items sz n c) (rep n (emit (HAlloc sz) ;;; c)).
Proof.
  intros Hsz. rewrite chunked_items_two_stage.
  apply (chunked_is_rep_twin _ tcong_vis val c (emit (HAlloc sz) ;;; c)
           (fun k => emit (HAlloc (sat_mul k sz)) ;;; emit (HReal (sat_mul k sz)))); [now apply chunk_len_pos|].
  intros k Hk known bs. rewrite (sat_mul_chunk k sz Hk).
  pose proof (announce_rep_nat _ c sz (N.to_nat k) known bs) as H. rewrite N2Nat.id in H.
  cbn [emit bindp runt] in *. rewrite (rep_rep_nat _ c k known bs).
  exact H.
Qed.

(* the bulk path on exactly the bytes that are there *)
Lemma yields_bulk B n bs known rest : 1 <= B <= 16 -> length bs = N.to_nat (n * B) ->
  yields (bulk_bytes B n) known (bs ++ rest) bs rest 0 (n * B).
Proof.
  intros HB Hl. pose proof (rt_bulk B n bs known rest Hl) as Ho. split; [exact Ho|split].
  - rewrite silent_dtr by apply silent_bulk. apply bal_nil.
  - apply (csum_bulk B n) with (a := bs) (r := rest); [unfold max_prealloc; lia|exact Ho].
Qed.

Lemma yields_depth {A} {p : prog A} {known bs a rest d m} :
  yields p known bs a rest d m -> max_depth 0 (snd (runt p known bs)) = d.
Proof. intros (_ & Hd & _). apply bal_dpi in Hd. destruct (Hd 0) as [H _]. now rewrite H. Qed.

(* the depth limiter lets the run through iff L covers its nesting *)
Lemma yields_depth_limit {A} {p : prog A} {known bs a rest d m} L : yields p known bs a rest d m ->
  if d <=? L
  then exists s, run (depthmon L) p known bs 0 = ROk a rest s
  else exists s, run (depthmon L) p known bs 0 = RErr s.
Proof.
  intros H. pose proof (depth_limit_exact _ p known bs L) as E. pose proof (yields_depth H) as Hd.
  destruct H as (Ho & _). rewrite <- runt_fst in Ho.
  destruct (runt p known bs) as [o evs]. cbn [fst snd] in *. now subst.
Qed.

(* the memory tracker lets it through iff L exceeds what it announces *)
Lemma yields_mem_limit {A} {p : prog A} {known bs a rest d m} L : yields p known bs a rest d m -> m <= usize_max ->
  (m < L -> exists u, run (memmon L) p known bs 0 = ROk a rest u) /\
  (0 < m -> L <= m -> exists u, run (memmon L) p known bs 0 = RErr u).
Proof.
  intros (Ho & _ & Hm) Hu. pose proof (mem_limit_threshold _ p known bs L) as E. rewrite <- runt_fst in Ho. unfold atr in Hm.
  destruct (runt p known bs) as [o evs]. cbn [fst snd] in *. subst o. cbv zeta in E.
  rewrite used_after_asum, Hm, N.add_0_l in E by lia. destruct E as (E1 & E2 & E3). split; auto.
Qed.

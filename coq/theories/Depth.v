(* C11, the value side: what the depth limiter sees of a trace (its descend/ascend events), balanced
   traces, and the container nesting depth [ddepth] of a value (that decoding an encoding nests
   that deep: CodecRt.dec_yields). *)
Require Import Scale.Bytes Scale.Prog Scale.ProgFacts Scale.ProgMore Scale.Monitors Scale.Codec Scale.TraceEq Scale.CompactImpl Scale.CodecDec.

Definition is_depth (e : event) : bool :=
  match e with EHook HDescend | EHook HAscend => true | _ => false end.
Definition dpi (evs : list event) : list event := filter is_depth evs.
Lemma dpi_app a b : dpi (a ++ b) = dpi a ++ dpi b.
Proof. apply filter_app. Qed.

Fixpoint end_depth (d : N) (evs : list event) : N :=
  match evs with
  | [] => d
  | EHook HDescend :: r => end_depth (d + 1) r
  | EHook HAscend :: r => end_depth (d - 1) r
  | _ :: r => end_depth d r
  end.

Lemma max_depth_dpi evs : forall d, max_depth d (dpi evs) = max_depth d evs.
Proof.
  induction evs as [|e r IH]; intros d; [reflexivity|].
  destruct e as [n|[| |n|n]]; cbn [dpi filter is_depth max_depth]; fold (dpi r); now rewrite ?IH.
Qed.
Lemma end_depth_dpi evs : forall d, end_depth d (dpi evs) = end_depth d evs.
Proof.
  induction evs as [|e r IH]; intros d; [reflexivity|].
  destruct e as [n|[| |n|n]]; cbn [dpi filter is_depth end_depth]; fold (dpi r); now rewrite ?IH.
Qed.

Lemma max_depth_app a : forall b d, max_depth d (a ++ b) = N.max (max_depth d a) (max_depth (end_depth d a) b).
Proof.
  induction a as [|e a IH]; intros b d; cbn [app max_depth end_depth].
  - pose proof (max_depth_ge d b). lia.
  - destruct e as [n|[| |n|n]]; rewrite ?IH; try reflexivity; lia.
Qed.
Lemma end_depth_app a : forall b d, end_depth d (a ++ b) = end_depth (end_depth d a) b.
Proof.
  induction a as [|e a IH]; intros b d; cbn [app end_depth]; [reflexivity|].
  destruct e as [n|[| |n|n]]; now rewrite ?IH.
Qed.

Definition dtr {A} (p : prog A) known bs : list event := dpi (snd (runt p known bs)).

Lemma dtr_bind_ok A B (p : prog A) (f : A -> prog B) known bs a r :
  runo p known bs = OOk a r -> dtr (bindp p f) known bs = dtr p known bs ++ dtr (f a) known r.
Proof. intros H. unfold dtr. rewrite (runt_bind_ok f H). apply dpi_app. Qed.
Arguments dtr_bind_ok {A B p} f {known bs a r}.
Lemma dtr_emit A h (p : prog A) known bs : dtr (emit h ;;; p) known bs = dpi [EHook h] ++ dtr p known bs.
Proof. apply (dpi_app [EHook h]). Qed.

Lemma silent_dtr A (p : prog A) known bs : silent is_depth p -> dtr p known bs = [].
Proof. intros H. now apply silent_filter. Qed.
Lemma dtr_ret A (a : A) known bs : dtr (Ret a) known bs = [].
Proof. reflexivity. Qed.
Lemma dtr_read_byte A (k : byte -> prog A) known b bs :
  dtr (x <- read_byte ;; k x) known (b :: bs) = dtr (k b) known bs.
Proof. reflexivity. Qed.
Lemma teq_dtr A (p q : prog A) : teq dpi p q -> forall known bs, dtr p known bs = dtr q known bs.
Proof. intros H known bs. apply (H known bs). Qed.
Lemma teq_chunked sz n c : sz <= max_prealloc -> teq dpi (chunked_items sz n c) (rep n c).
Proof.
  intros H. apply (chunked_is_rep_t dpi dpi_app val c (fun k => emit (HAlloc (sat_mul k sz)) ;;; emit (HReal (sat_mul k sz)))).
  - now apply chunk_len_pos.
  - intros k B p known bs. split; reflexivity.
Qed.

(* programs that never descend or ascend *)
Fixpoint nodepth {A} (p : prog A) : Prop :=
  match p with
  | Emit HDescend _ | Emit HAscend _ => False
  | Emit _ k => nodepth k
  | Read _ k => forall bs, nodepth (k bs)
  | ReadByte k => forall b, nodepth (k b)
  | Need _ k => nodepth k
  | _ => True
  end.
(* [nodepth] is [silent is_depth]; what is known of the one is known of the other *)
Lemma nodepth_silent A (p : prog A) : nodepth p -> silent is_depth p.
Proof.
  induction p as [a| | | |n k IH|k IH|nd k IH|h k IH]; cbn [nodepth silent]; auto.
  destruct h; try contradiction; auto.
Qed.
Lemma silent_nodepth A (p : prog A) : silent is_depth p -> nodepth p.
Proof.
  induction p as [a| | | |n k IH|k IH|nd k IH|h k IH]; cbn [nodepth silent]; auto.
  destruct h; intros [E H]; try discriminate; auto.
Qed.

Lemma silent_bulk B n : silent is_depth (bulk_bytes B n).
Proof. unfold bulk_bytes, one_bulk. silence. Qed.

Lemma nodepth_bind A B (p : prog A) (g : A -> prog B) : nodepth p -> (forall a, nodepth (g a)) -> nodepth (bindp p g).
Proof. intros Hp Hg. apply silent_nodepth, silent_bind; [now apply nodepth_silent|]. intros a. now apply nodepth_silent. Qed.
Lemma nodepth_rep_nat A (c : prog A) n : nodepth c -> nodepth (rep_nat n c).
Proof. intros Hc. now apply silent_nodepth, silent_rep_nat, nodepth_silent. Qed.
Lemma nodepth_dtr A (p : prog A) known : nodepth p -> forall bs, dtr p known bs = [].
Proof. intros H bs. now apply silent_dtr, nodepth_silent. Qed.
Lemma nodepth_rep A (c : prog A) n : nodepth c -> forall known bs, dtr (rep n c) known bs = [].
Proof. intros Hc known bs. now apply silent_dtr, silent_rep, nodepth_silent. Qed.
Lemma nodepth_dec_compact B : nodepth (dec_compact B).
Proof. apply silent_nodepth, silent_dec_compact. Qed.
Lemma nodepth_dec_prim B : nodepth (dec_prim B).
Proof. apply silent_nodepth, silent_dec_prim. Qed.
Lemma nodepth_bulk B n : nodepth (bulk_bytes B n).
Proof. apply silent_nodepth, silent_bulk. Qed.

Definition maxl (l : list N) : N := fold_right N.max 0 l.

Fixpoint ddepth (t : ty) (v : val) {struct t} : N :=
  match t, v with
  | TOption t', VSome v' => ddepth t' v'
  | TResult t' _, VOk v' => ddepth t' v'
  | TResult _ e, VErr v' => ddepth e v'
  | TColl k _ t', VSeq l =>
      match k, t' with
      | CVec, TPrim _ | CHeap, TPrim _ => 0
      | _, _ => 1 + maxl (map (ddepth t') l)
      end
  | TArray _ t', VSeq l => maxl (map (ddepth t') l)
  | TPair a b, VPair x y => N.max (ddepth a x) (ddepth b y)
  | TBox _ t', _ => 1 + ddepth t' v
  | TEnum vs, VVar k v' => ddepth_vars vs k v'
  | _, _ => 0
  end
with ddepth_vars (vs : variants) (k : nat) (v : val) {struct vs} : N :=
  match vs, k with
  | VsNil, _ => 0
  | VsCons _ t _, O => ddepth t v
  | VsCons _ _ r, S k' => ddepth_vars r k' v
  end.

(* what a balanced sub-trace does to the depth bookkeeping *)
Definition bal (evs : list event) (n : N) : Prop :=
  forall d, max_depth d evs = d + n /\ end_depth d evs = d.

Lemma bal_nil : bal [] 0.
Proof. intros d. cbn. split; [lia|reflexivity]. Qed.
Lemma bal_nodepth A (p : prog A) known bs : nodepth p -> bal (dtr p known bs) 0.
Proof. intros H. rewrite nodepth_dtr by exact H. apply bal_nil. Qed.
Lemma bal_app a b n m : bal a n -> bal b m -> bal (a ++ b) (N.max n m).
Proof.
  intros Ha Hb d. destruct (Ha d) as [A1 A2]. rewrite max_depth_app, end_depth_app, A1, A2.
  destruct (Hb d) as [B1 B2]. rewrite B1, B2. split; [lia|reflexivity].
Qed.
Lemma bal_wrap a n : bal a n -> bal ([EHook HDescend] ++ a ++ [EHook HAscend]) (1 + n).
Proof.
  intros Ha d. cbn [app max_depth end_depth].
  destruct (Ha (d + 1)) as [A1 A2]. rewrite max_depth_app, end_depth_app, A1, A2. cbn [max_depth end_depth].
  split; [lia|lia].
Qed.
Lemma bal_dpi evs n : bal (dpi evs) n -> bal evs n.
Proof. intros H d. destruct (H d) as [A B]. now rewrite max_depth_dpi in A; rewrite end_depth_dpi in B. Qed.

(* The view of an encoding, Enc, on which the theorems about encodings induct; every well-formed value
   has one, and the same bytes under the specification's and the implementation's compact code (C01). *)
Require Import Scale.Bytes Scale.Eres Scale.Prog Scale.CompactSpec Scale.CompactProofs Scale.Utf8 Scale.Codec.

Scheme ty_mut := Induction for ty Sort Prop
  with variants_mut := Induction for variants Sort Prop.
Combined Scheme ty_variants_ind from ty_mut, variants_mut.

Definition spec_c : N -> N -> eres (list byte) := fun _ n => EOk (spec_compact n).

Lemma okB_okwidth B : okB B = true -> okwidth B.
Proof.
  unfold okB, okwidth. intros H.
  repeat (apply orb_prop in H; destruct H as [H|H]); apply N.eqb_eq in H; auto.
Qed.

Fixpoint variant_at (vs : variants) (k : nat) : option (N * ty) :=
  match vs, k with
  | VsNil, _ => None
  | VsCons i t _, O => Some (i, t)
  | VsCons _ _ r, S k' => variant_at r k'
  end.

(* every [_vars] companion of a function on types looks the variant up and applies the function *)
Lemma vars_select {A} (f : ty -> val -> A) (fv : variants -> nat -> val -> A) :
  (forall i t r v, fv (VsCons i t r) O v = f t v) -> (forall i t r k v, fv (VsCons i t r) (S k) v = fv r k v) ->
  forall vs k i t v, variant_at vs k = Some (i, t) -> fv vs k v = f t v.
Proof.
  intros H0 HS. induction vs as [|j u r IH]; intros [|k] i t v; cbn [variant_at]; try discriminate.
  - intros [= _ <-]. apply H0.
  - intros H. rewrite HS. now apply IH with (i := i).
Qed.

(* The view of an encoding.  [Enc t v bs]: bs is the canonical encoding of the well-formed value v
   of type t, with one constructor per form of value and the arithmetic facts that [wf] guards as
   premises.  [wf_view_mut] is where [wf] and [enc] are taken apart: every well-formed value has an
   encoding, the same under every compact encoder that is right on what it is handed (cok), and
   the view of it; the theorems about decoding or measuring an encoding (round trip, nesting depth,
   announced memory, declared lengths) go by induction on Enc. *)
Inductive Enc : ty -> val -> list byte -> Prop :=
| EncUnit : Enc TUnit VUnit []
| EncBool b : Enc TBool (VBool b) [if b then x01 else x00]
| EncPrim B n : okB B = true -> n < 2 ^ (8 * B) -> Enc (TPrim B) (VN n) (le_enc (N.to_nat B) n)
| EncCompact B n : okB B = true -> n < 2 ^ (8 * B) -> Enc (TCompact B) (VN n) (spec_compact n)
| EncNonZero B n : okB B = true -> 0 < n < 2 ^ (8 * B) -> Enc (TNonZero B) (VN n) (le_enc (N.to_nat B) n)
| EncNone t : Enc (TOption t) VNone [x00]
| EncSome t v bs : Enc t v bs -> Enc (TOption t) (VSome v) (x01 :: bs)
| EncOk t e v bs : Enc t v bs -> Enc (TResult t e) (VOk v) (x00 :: bs)
| EncErr t e v bs : Enc e v bs -> Enc (TResult t e) (VErr v) (x01 :: bs)
| EncNoBool : Enc TOptionBool VNone [x00]
| EncSomeBool b : Enc TOptionBool (VSome (VBool b)) [if b then x01 else x02]
| EncColl k sz t l bs : Encs t l bs -> N.of_nat (length l) <= u32max ->
    match k with
    | CSet => strictly_sorted false (map (canon t) l)
    | CMap => strictly_sorted true (map (canon t) l)
    | _ => true
    end = true ->
    Enc (TColl k sz t) (VSeq l) (spec_compact (N.of_nat (length l)) ++ bs)
| EncStr l bs : bytes_of_vals l = Some bs -> N.of_nat (length l) <= u32max -> utf8_valid bs = true ->
    Enc TStr (VSeq l) (spec_compact (N.of_nat (length l)) ++ bs)
| EncArray t l bs : Encs t l bs -> Enc (TArray (N.of_nat (length l)) t) (VSeq l) bs
| EncPair a b x y bx by' : Enc a x bx -> Enc b y by' -> Enc (TPair a b) (VPair x y) (bx ++ by')
| EncBox sz t v bs : Enc t v bs -> Enc (TBox sz t) v bs
| EncDuration s n : s < 2 ^ 64 -> n < a_billion ->
    Enc TDuration (VPair (VN s) (VPair (VN n) VUnit)) (le_enc 8 s ++ le_enc 4 n)
| EncBits B msb l : okB B = true -> B <= 8 -> N.of_nat (length l) < 2 ^ 29 ->
    Enc (TBits B msb) (VBits l)
        (spec_compact (N.of_nat (length l)) ++
         concat (map (fun c => le_enc (N.to_nat B) (word_of_chunk B msb c)) (chunks (N.to_nat (8 * B)) l)))
| EncEnum vs k i t v bs : idx_ok vs = true -> variant_at vs k = Some (i, t) -> Enc t v bs ->
    Enc (TEnum vs) (VVar k v) (byte_of i :: bs)
with Encs : ty -> list val -> list byte -> Prop :=
| EncsNil t : Encs t [] []
| EncsCons t v l b bs : Enc t v b -> Encs t l bs -> Encs t (v :: l) (b ++ bs).

Scheme Enc_mut := Minimality for Enc Sort Prop
  with Encs_mut := Minimality for Encs Sort Prop.
Combined Scheme Enc_Encs_ind from Enc_mut, Encs_mut.

Lemma Enc_prim_inv B v bs : Enc (TPrim B) v bs -> exists n, v = VN n /\ bs = le_enc (N.to_nat B) n /\ n < 2 ^ (8 * B).
Proof. inversion 1; subst; eauto. Qed.
Lemma Enc_pair_inv a b v bs : Enc (TPair a b) v bs ->
  exists x y bx by', v = VPair x y /\ bs = bx ++ by' /\ Enc a x bx /\ Enc b y by'.
Proof. inversion 1; subst; eauto 10. Qed.

Lemma eapp_ok a b bs : eapp a b = EOk bs -> exists x y, a = EOk x /\ b = EOk y /\ bs = x ++ y.
Proof.
  unfold eapp, ebind. destruct a as [x| | |]; try discriminate. destruct b as [y| | |]; try discriminate.
  intros [= <-]. eauto.
Qed.

(* compact encoders that give the shortest form on what the encoder hands them: a width the type
   allows and a value that fits it (counts: width 4, guarded by the encoder itself) *)
Definition cok (c : N -> N -> eres (list byte)) : Prop :=
  forall B n, okB B = true -> n < 2 ^ (8 * B) -> c B n = EOk (spec_compact n).

Lemma enc_count_ok c n : cok c -> N.of_nat n <= u32max -> enc_count c n = EOk (spec_compact (N.of_nat n)).
Proof.
  intros Hc H. unfold enc_count. destruct (N.ltb_spec u32max (N.of_nat n)); [lia|].
  apply Hc; [reflexivity|]. unfold u32max in H. change (2 ^ (8 * 4)) with 4294967296. lia.
Qed.

(* a well-formed value has the same encoding under every such encoder, and the view of it *)
Definition Venc t v : Prop := exists bs, Enc t v bs /\ forall c, cok c -> enc c t v = EOk bs.

Lemma venc_items t l : (forall v, wf t v = true -> Venc t v) -> forallb (wf t) l = true ->
  exists bs, Encs t l bs /\ forall c, cok c -> econcat (map (enc c t) l) = EOk bs.
Proof.
  intros IH. induction l as [|v l IHl]; cbn [map econcat forallb]; intros Hw; [exists []; split; [constructor|reflexivity]|].
  apply andb_prop in Hw as [Hv Hl]. destruct (IH v Hv) as (b & Eb & Hb). destruct (IHl Hl) as (bs & Ebs & Hbs).
  exists (b ++ bs). split; [now constructor|]. intros c Hc. now rewrite (Hb c Hc), (Hbs c Hc).
Qed.

Theorem wf_view_mut :
  (forall t v, wf t v = true -> Venc t v) /\
  (forall vs k v, idx_ok vs = true -> wf_vars vs k v = true ->
     exists i t pb, variant_at vs k = Some (i, t) /\ Enc t v pb /\
                    forall c, cok c -> enc_vars c vs k v = EOk (byte_of i :: pb)).
Proof.
  unfold Venc. apply ty_variants_ind.
  - (* TUnit *) intros v0; cbn [wf]; destruct v0; try discriminate. intros _. eexists. split; [constructor|reflexivity].
  - (* TBool *) intros v0; cbn [wf]; destruct v0; try discriminate. intros _. eexists. split; [constructor|reflexivity].
  - (* TPrim *) intros B v0; cbn [wf]; destruct v0 as [ | |n| | | | | | | | ]; try discriminate.
    intros H. apply andb_prop in H as [HB Hn]. eexists. split; [constructor; [exact HB|now apply N.ltb_lt]|].
    intros c _. cbn [enc]. now rewrite Hn.
  - (* TCompact *) intros B v0; cbn [wf]; destruct v0 as [ | |n| | | | | | | | ]; try discriminate.
    intros H. apply andb_prop in H as [HB Hn]. eexists. split; [constructor; [exact HB|now apply N.ltb_lt]|].
    intros c Hc. cbn [enc]. rewrite Hn. apply Hc; [exact HB|now apply N.ltb_lt].
  - (* TNonZero *) intros B v0; cbn [wf]; destruct v0 as [ | |n| | | | | | | | ]; try discriminate.
    intros H. apply andb_prop in H as [H Hn]. apply andb_prop in H as [HB H0].
    eexists. split; [constructor; [exact HB|split; now apply N.ltb_lt]|]. intros c _. cbn [enc]. now rewrite H0, Hn.
  - (* TOption *) intros t IH v0; cbn [wf]; destruct v0 as [ | | | |v| | | | | | ]; try discriminate.
    + intros _. eexists. split; [constructor|reflexivity].
    + intros Hv. destruct (IH v Hv) as (y & Ey & Hy). eexists. split; [constructor; exact Ey|].
      intros c Hc. cbn [enc]. now rewrite (Hy c Hc).
  - (* TResult *) intros t IHt e IHe v0; cbn [wf]; destruct v0 as [ | | | | |v|v| | | | ]; try discriminate; intros Hv;
      [destruct (IHt v Hv) as (y & Ey & Hy)|destruct (IHe v Hv) as (y & Ey & Hy)];
      (eexists; split; [constructor; exact Ey|]; intros c Hc; cbn [enc]; now rewrite (Hy c Hc)).
  - (* TOptionBool *) intros v0; cbn [wf]; destruct v0 as [ | | | |[ |b| | | | | | | | | ]| | | | | | ]; try discriminate; intros _.
    + eexists. split; [constructor|reflexivity].
    + exists [if b then x01 else x02]. split; [constructor|now destruct b].
  - (* TColl *) intros k sz t IH v0; cbn [wf]; destruct v0 as [ | | | | | | |l| | | ]; try discriminate.
    intros Hw. apply andb_prop in Hw as [Hw Hs]. apply andb_prop in Hw as [Hl Hn]. apply N.leb_le in Hn.
    destruct (venc_items t l IH Hl) as (y & Ey & Hy). eexists. split; [constructor; [exact Ey|exact Hn|exact Hs]|].
    intros c Hc. cbn [enc]. now rewrite (enc_count_ok c _ Hc Hn), (Hy c Hc).
  - (* TStr *) intros v0; cbn [wf]; destruct v0 as [ | | | | | | |l| | | ]; try discriminate.
    intros Hw. apply andb_prop in Hw as [Hn Hu]. apply N.leb_le in Hn. destruct (bytes_of_vals l) as [bl|] eqn:Eb; [|discriminate].
    eexists. split; [constructor; [exact Eb|exact Hn|exact Hu]|].
    intros c Hc. cbn [enc]. now rewrite Eb, (enc_count_ok c _ Hc Hn).
  - (* TArray *) intros n t IH v0; cbn [wf]; destruct v0 as [ | | | | | | |l| | | ]; try discriminate.
    intros Hw. apply andb_prop in Hw as [Hl Hn]. apply N.eqb_eq in Hn. subst n.
    destruct (venc_items t l IH Hl) as (y & Ey & Hy). eexists. split; [constructor; exact Ey|].
    intros c Hc. cbn [enc]. now rewrite N.eqb_refl, (Hy c Hc).
  - (* TPair *) intros a IHa b IHb v0; cbn [wf]; destruct v0 as [ | | | | | | | |x y| | ]; try discriminate.
    intros Hw. apply andb_prop in Hw as [Hx Hy]. destruct (IHa x Hx) as (bx & Ex & Hbx). destruct (IHb y Hy) as (by' & Ey & Hby).
    eexists. split; [constructor; eassumption|]. intros c Hc. cbn [enc]. now rewrite (Hbx c Hc), (Hby c Hc).
  - (* TBox *) intros sz t IH v Hw. destruct (IH v Hw) as (bs & Ev & E). exists bs. split; [now constructor|exact E].
  - (* TDuration *) intros v Hw. (* one level of the value at a time: a nested pattern would visit 11^3 shapes *)
    destruct v as [ | | | | | | | |x y| | ]; try discriminate. destruct x as [ | |s| | | | | | | | ]; try discriminate.
    destruct y as [ | | | | | | | |x y| | ]; try discriminate. destruct x as [ | |n| | | | | | | | ]; try discriminate.
    destruct y; try discriminate. cbn [wf] in Hw.
    apply andb_prop in Hw as [Hs Hn]. eexists. split; [constructor; now apply N.ltb_lt|].
    intros c _. cbn [enc]. rewrite Hs. apply N.ltb_lt in Hn.
    destruct (N.ltb_spec n (2 ^ 32)); [reflexivity|unfold a_billion in Hn; change (2 ^ 32) with 4294967296 in *; lia].
  - (* TBits *) intros B msb v0; cbn [wf]; destruct v0 as [ | | | | | | | | |l| ]; try discriminate.
    intros Hw. apply andb_prop in Hw as [Hw Hlen]. apply andb_prop in Hw as [HB HB8].
    apply N.ltb_lt in Hlen. apply N.leb_le in HB8.
    eexists. split; [now constructor|]. intros c Hc. cbn [enc].
    destruct (N.ltb_spec (2 ^ 29 - 1) (N.of_nat (length l))); [lia|].
    rewrite Hc; [reflexivity..|]. change (2 ^ 29) with 536870912 in Hlen. change (2 ^ (8 * 4)) with 4294967296. lia.
  - (* TEnum *) intros vs IH v0; cbn [wf]; destruct v0 as [ | | | | | | | | | |k v]; try discriminate.
    intros Hw. apply andb_prop in Hw as [Hidx Hw].
    destruct (IH k v Hidx Hw) as (i & t & pb & Hat & Hv & E). eexists. split; [econstructor; eauto|exact E].
  - (* VsNil *) intros k v _ H. discriminate.
  - (* VsCons *) intros idx t IHt vs IHvs [|k] v Hok Hw; cbn [idx_ok wf_vars variant_at] in *;
      apply andb_prop in Hok as [Hok Hr]; apply andb_prop in Hok as [Hlt _].
    + destruct (IHt v Hw) as (y & Ey & Hy). exists idx, t, y. split; [reflexivity|split; [exact Ey|]].
      intros c Hc. cbn [enc_vars]. now rewrite Hlt, (Hy c Hc).
    + destruct (IHvs k v Hr Hw) as (i & u & pb & Hat & Hv & E). exists i, u, pb. auto.
Qed.

Lemma cok_spec : cok spec_c. Proof. intros B n _ _. reflexivity. Qed.

Theorem enc_impl_is_spec t v : wf t v = true -> enc_impl t v = enc_spec t v.
Proof.
  intros Hw. destruct (proj1 wf_view_mut t v Hw) as (bs & _ & E). transitivity (EOk bs); [|symmetry; exact (E _ cok_spec)].
  apply E. intros B n HB Hn. apply enc_compact_spec; [now apply okB_okwidth|exact Hn].
Qed.

Lemma enc_view t v bs : wf t v = true -> enc_spec t v = EOk bs -> Enc t v bs.
Proof.
  intros Hw He. destruct (proj1 wf_view_mut t v Hw) as (bs' & Ev & E).
  pose proof (E _ cok_spec) as E'. change (enc_spec t v = EOk bs') in E'. congruence.
Qed.

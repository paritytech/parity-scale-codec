(* Compact integers: the SCALE specification (shortest form) and a width-generic
   specification decoder, its four modes instances of sdec_mode, with both directions proved:
     sdec_spec  : every canonical form of a value below 2^W decodes to it;
     sdec_canon : anything accepted is the canonical form of a value below 2^W. *)
Require Import Scale.Bytes.

Definition byte_len (v : N) : nat := N.to_nat ((N.size v + 7) / 8).

Definition spec_compact (v : N) : list byte :=
  if v <? 2^6 then le_enc 1 (4*v)
  else if v <? 2^14 then le_enc 2 (4*v+1)
  else if v <? 2^30 then le_enc 4 (4*v+2)
  else let n := byte_len v in byte_of (4 * (N.of_nat n - 4) + 3) :: le_enc n v.

(* byte_len v is the least n with v < 256^n; what else is needed of it follows from that *)
Lemma byte_len_le_iff v n : N.of_nat (byte_len v) <= n <-> v < 256 ^ n.
Proof. unfold byte_len. rewrite N2Nat.id, pow256, <- size_le_iff. lia. Qed.

Lemma byte_len_spec v : 0 < v -> 256 ^ (N.of_nat (byte_len v) - 1) <= v < 256 ^ N.of_nat (byte_len v).
Proof.
  intros Hv. assert (H0: ~ N.of_nat (byte_len v) <= 0) by (rewrite byte_len_le_iff; lia).
  rewrite N.le_ngt, <- !byte_len_le_iff. lia.
Qed.

Lemma byte_len_unique v n : 256 ^ (n - 1) <= v < 256 ^ n -> byte_len v = N.to_nat n.
Proof. rewrite N.le_ngt, <- !byte_len_le_iff. lia. Qed.

Lemma byte_len_big v : 2^30 <= v -> (4 <= byte_len v)%nat.
Proof. intros H. enough (~ N.of_nat (byte_len v) <= 3) by lia. rewrite byte_len_le_iff. lia. Qed.

Lemma if_lt {A} a b (x y : A) : a < b -> (if a <? b then x else y) = x.
Proof. intros H. now rewrite (proj2 (N.ltb_lt a b) H). Qed.

Lemma if_ge {A} a b (x y : A) : b <= a -> (if a <? b then x else y) = y.
Proof. intros H. now rewrite (proj2 (N.ltb_ge a b) H). Qed.

Lemma spec_compact_0 v : v < 2^6 -> spec_compact v = le_enc 1 (4*v).
Proof. intros H. unfold spec_compact. now rewrite if_lt. Qed.

Lemma spec_compact_1 v : 2^6 <= v < 2^14 -> spec_compact v = le_enc 2 (4*v+1).
Proof. intros H. unfold spec_compact. now rewrite if_ge, if_lt. Qed.

Lemma spec_compact_2 v : 2^14 <= v < 2^30 -> spec_compact v = le_enc 4 (4*v+2).
Proof. intros H. unfold spec_compact. now rewrite !if_ge, if_lt by lia. Qed.

Lemma spec_compact_3 v : 2^30 <= v ->
  spec_compact v = byte_of (4 * (N.of_nat (byte_len v) - 4) + 3) :: le_enc (byte_len v) v.
Proof. intros H. unfold spec_compact. now rewrite !if_ge by lia. Qed.

Lemma spec_compact_nonempty v : spec_compact v <> [].
Proof.
  unfold spec_compact. destruct (v <? 2 ^ 6); [discriminate|]. destruct (v <? 2 ^ 14); [discriminate|].
  destruct (v <? 2 ^ 30); discriminate.
Qed.

Theorem spec_compact_length v :
  length (spec_compact v) =
  if v <? 2 ^ 6 then 1%nat else if v <? 2 ^ 14 then 2%nat else if v <? 2 ^ 30 then 4%nat
  else S (byte_len v).
Proof.
  unfold spec_compact.
  destruct (v <? 2 ^ 6); [reflexivity|]. destruct (v <? 2 ^ 14); [reflexivity|].
  destruct (v <? 2 ^ 30); [reflexivity|]. cbn [length]. now rewrite le_enc_len.
Qed.

(* one mode: the next k bytes b give the value f b, accepted when lo <= f b < 2^W *)
Definition sdec_mode (W lo : N) (f : list byte -> N) (k : nat) (bs : list byte) : option (N * list byte) :=
  match take k bs with
  | Some (b, r) => if (lo <=? f b) && (f b <? 2 ^ W) then Some (f b, r) else None
  | None => None
  end.

(* modes 0-2: the prefix byte p and the bytes b after it hold 4 * value + mode, little-endian *)
Definition tagged (p : byte) (b : list byte) : N := le_dec (p :: b) / 4.

Definition sdec (W : N) (bs : list byte) : option (N * list byte) :=
  match bs with
  | [] => None
  | p :: rest =>
    let pn := Byte.to_N p in
    match pn mod 4 with
    | 0 => sdec_mode W 0 (tagged p) 0 rest
    | 1 => sdec_mode W (2^6) (tagged p) 1 rest
    | 2 => sdec_mode W (2^14) (tagged p) 3 rest
    | _ => let n := pn / 4 + 4 in
           sdec_mode W (N.max (2^30) (256 ^ (n - 1))) le_dec (N.to_nat n) rest
    end
  end.

Lemma sdec_mode_app W lo f k b r x : length b = k -> f b = x -> lo <= x < 2 ^ W ->
  sdec_mode W lo f k (b ++ r) = Some (x, r).
Proof.
  intros Hk <- Hx. unfold sdec_mode. rewrite take_app by exact Hk.
  now replace ((lo <=? f b) && (f b <? 2 ^ W)) with true by lia.
Qed.

Lemma sdec_mode_inv W lo f k bs x r : sdec_mode W lo f k bs = Some (x, r) ->
  exists b, bs = b ++ r /\ length b = k /\ x = f b /\ lo <= x < 2 ^ W.
Proof.
  unfold sdec_mode. destruct (take k bs) as [[b r']|] eqn:E; [|discriminate].
  apply take_inv in E as [-> Hk].
  destruct (N.leb_spec lo (f b)), (N.ltb_spec (f b) (2 ^ W)); try discriminate.
  intros [= <- <-]. now exists b.
Qed.

Lemma sdec_mode_none W lo f k bs : 2 ^ W <= lo -> sdec_mode W lo f k bs = None.
Proof.
  intros H. unfold sdec_mode. destruct (take k bs) as [[b r]|]; [|reflexivity].
  now replace ((lo <=? f b) && (f b <? 2 ^ W)) with false by lia.
Qed.

Lemma mod4_cases pn : pn mod 4 = 0 \/ pn mod 4 = 1 \/ pn mod 4 = 2 \/ pn mod 4 = 3.
Proof. lia. Qed.

Lemma sdec_0 W p r : Byte.to_N p mod 4 = 0 -> sdec W (p :: r) = sdec_mode W 0 (tagged p) 0 r.
Proof. intros E. cbn [sdec]. now rewrite E. Qed.

Lemma sdec_1 W p r : Byte.to_N p mod 4 = 1 -> sdec W (p :: r) = sdec_mode W (2^6) (tagged p) 1 r.
Proof. intros E. cbn [sdec]. now rewrite E. Qed.

Lemma sdec_2 W p r : Byte.to_N p mod 4 = 2 -> sdec W (p :: r) = sdec_mode W (2^14) (tagged p) 3 r.
Proof. intros E. cbn [sdec]. now rewrite E. Qed.

Lemma sdec_3 W p r : Byte.to_N p mod 4 = 3 ->
  sdec W (p :: r) =
  let n := Byte.to_N p / 4 + 4 in sdec_mode W (N.max (2^30) (256 ^ (n - 1))) le_dec (N.to_nat n) r.
Proof. intros E. cbn [sdec]. now rewrite E. Qed.

(* what k+1 bytes can hold, less the two mode bits *)
Lemma tagged_bound p b : tagged p b < 2 ^ (8 * N.of_nat (length b) + 6).
Proof.
  pose proof (le_dec_bound (p :: b)) as H. cbn [length] in H.
  rewrite pow256, Nat2N.inj_succ in H.
  replace (8 * N.succ (N.of_nat (length b))) with (2 + (8 * N.of_nat (length b) + 6)) in H by lia.
  rewrite N.pow_add_r in H. unfold tagged. lia.
Qed.

Lemma tagged_nil p : tagged p [] = Byte.to_N p / 4.
Proof. unfold tagged. cbn [le_dec]. now rewrite N.mul_0_r, N.add_0_r. Qed.

Lemma le_dec_mod4 p b : le_dec (p :: b) mod 4 = Byte.to_N p mod 4.
Proof. cbn [le_dec]. change 256 with (64 * 4). now rewrite N.mul_shuffle0, N.mod_add. Qed.

Lemma tagged_enc k m v : m < 4 -> 4 * v + m < 256 ^ N.of_nat (S k) ->
  Byte.to_N (byte_of (4 * v + m)) mod 4 = m /\
  tagged (byte_of (4 * v + m)) (le_enc k ((4 * v + m) / 256)) = v.
Proof.
  intros Hm H. rewrite <- (le_dec_mod4 _ (le_enc k ((4 * v + m) / 256))). unfold tagged.
  change (byte_of _ :: le_enc k _) with (le_enc (S k) (4 * v + m)). rewrite le_dec_enc by exact H.
  split; symmetry; [now apply (N.mod_unique _ 4 v)|now apply (N.div_unique _ 4 v m)].
Qed.

Lemma tagged_dec p b : le_enc (S (length b)) (4 * tagged p b + Byte.to_N p mod 4) = p :: b.
Proof.
  rewrite <- (le_dec_mod4 p b). unfold tagged. rewrite <- N.div_mod by lia. apply (le_enc_dec (p :: b)).
Qed.

(* a value in the range of mode m < 3, written as S k bytes holding 4 * v + m, decodes to v *)
Lemma sdec_tagged W m lo k v rest :
  (forall p r, Byte.to_N p mod 4 = m -> sdec W (p :: r) = sdec_mode W lo (tagged p) k r) ->
  m < 4 -> lo <= v < 2 ^ W -> 4 * v + m < 256 ^ N.of_nat (S k) ->
  sdec W (le_enc (S k) (4 * v + m) ++ rest) = Some (v, rest).
Proof.
  intros Hs Hm Hv Hb. destruct (tagged_enc k m v Hm Hb) as [Em Et].
  cbn [le_enc app]. rewrite Hs by exact Em. now apply sdec_mode_app; [apply le_enc_len|..].
Qed.

(* the prefix byte of the length-tagged form with n bytes *)
Lemma big_tag n : 4 <= n <= 67 ->
  let p := byte_of (4 * (n - 4) + 3) in Byte.to_N p mod 4 = 3 /\ Byte.to_N p / 4 + 4 = n.
Proof.
  intros H. cbv zeta. rewrite to_byte_of, (N.mod_small _ 256) by lia.
  rewrite <- (N.mod_unique _ 4 (n - 4) 3), <- (N.div_unique _ 4 (n - 4) 3) by (lia || reflexivity). lia.
Qed.

Theorem sdec_spec W v rest : W <= 536 -> v < 2^W -> sdec W (spec_compact v ++ rest) = Some (v, rest).
Proof.
  intros HW Hv.
  destruct (N.lt_ge_cases v (2^6)).
  { rewrite spec_compact_0, <- (N.add_0_r (4 * v)) by lia. apply (sdec_tagged W 0 0 0 v _ (sdec_0 W)); lia. }
  destruct (N.lt_ge_cases v (2^14)).
  { rewrite spec_compact_1 by lia. apply (sdec_tagged W 1 (2^6) 1 v _ (sdec_1 W)); lia. }
  destruct (N.lt_ge_cases v (2^30)) as [|H30].
  { rewrite spec_compact_2 by lia. apply (sdec_tagged W 2 (2^14) 3 v _ (sdec_2 W)); lia. }
  rewrite spec_compact_3 by exact H30.
  pose proof (byte_len_big v H30) as H4. destruct (byte_len_spec v) as [Hlo Hhi]; [lia|].
  (* the length fits the six bits the prefix byte has for it: v < 2^W <= 256^67 *)
  assert (H67: N.of_nat (byte_len v) <= 67).
  { apply byte_len_le_iff. rewrite pow256. apply (N.lt_le_trans _ _ _ Hv), N.pow_le_mono_r; lia. }
  destruct (big_tag (N.of_nat (byte_len v))) as [Em En]; [lia|].
  cbn [app]. rewrite sdec_3 by exact Em. cbv zeta. rewrite En, Nat2N.id. clear Em En.
  apply sdec_mode_app; [apply le_enc_len|now apply le_dec_enc|lia].
Qed.

(* conversely, what a mode m < 3 accepts is p :: b = le_enc _ (4 * v + m), for v in the
   range of the mode *)
Lemma tagged_canon W lo k p bs v rest : sdec_mode W lo (tagged p) k bs = Some (v, rest) ->
  v < 2 ^ W /\ lo <= v < 2 ^ (8 * N.of_nat k + 6) /\
  p :: bs = le_enc (S k) (4 * v + Byte.to_N p mod 4) ++ rest.
Proof.
  intros H. apply sdec_mode_inv in H as (b & -> & <- & -> & Hlo & Hv).
  split; [exact Hv|]. split; [split; [exact Hlo|apply tagged_bound]|]. now rewrite tagged_dec.
Qed.

Theorem sdec_canon W bs v rest : sdec W bs = Some (v, rest) -> v < 2^W /\ bs = spec_compact v ++ rest.
Proof.
  destruct bs as [|p r0]; [discriminate|].
  destruct (mod4_cases (Byte.to_N p)) as [Em|[Em|[Em|Em]]].
  - rewrite sdec_0 by exact Em. intros H. apply tagged_canon in H as (Hv & Hr & ->).
    split; [exact Hv|]. now rewrite Em, N.add_0_r, spec_compact_0 by apply Hr.
  - rewrite sdec_1 by exact Em. intros H. apply tagged_canon in H as (Hv & Hr & ->).
    split; [exact Hv|]. now rewrite Em, spec_compact_1 by exact Hr.
  - rewrite sdec_2 by exact Em. intros H. apply tagged_canon in H as (Hv & Hr & ->).
    split; [exact Hv|]. now rewrite Em, spec_compact_2 by exact Hr.
  - rewrite sdec_3 by exact Em. cbv zeta. intros H.
    apply sdec_mode_inv in H as (b & -> & Hlen & -> & Hlo & Hv). split; [exact Hv|].
    (* the prefix byte is the tag for the length it announces *)
    assert (Ep: byte_of (4 * (Byte.to_N p / 4 + 4 - 4) + 3) = p).
    { rewrite N.add_sub, <- Em, <- N.div_mod by discriminate. apply byte_of_to. }
    set (n := Byte.to_N p / 4 + 4) in *. clearbody n. clear Em.
    pose proof (le_dec_bound b) as Hb. rewrite Hlen, N2Nat.id in Hb.
    rewrite spec_compact_3, (byte_len_unique (le_dec b) n), N2Nat.id, Ep by lia.
    now rewrite <- Hlen, le_enc_dec.
Qed.

Theorem sdec_iff W bs v rest : W <= 536 ->
  (sdec W bs = Some (v, rest) <-> v < 2^W /\ bs = spec_compact v ++ rest).
Proof. intros HW. split; [apply sdec_canon|]. intros [Hv ->]. now apply sdec_spec. Qed.

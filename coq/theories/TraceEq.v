(* Program equivalence modulo what an observer sees of the event trace.
   [req E p q]: on every input p and q have the same outcome, and their traces are related by
   [E ok], where [ok] tells whether that outcome is a value.  Instances: outcome equivalence
   ([Chunks.oeq]: every two traces are related), [teq pi] (equal pi-projections, on success and on
   failure; with pi keeping only the descend/ascend hooks it is what the depth limiter can observe)
   and [seq mu] (equal additive measure, on success only; with mu the sum of the announced sizes it
   is what the memory tracker can observe).  That the element loop of decode_vec_chunked is plain
   repetition is proved once, for every such E.  The instance the round trip uses is [req vis]
   (Yields.v), built from tcong_proj and tcong_meas; teq and seq stand as instances in their own right. *)
Require Import Scale.Bytes Scale.Prog Scale.ProgFacts Scale.ProgMore.

Definition is_ok {A} (o : out A) : bool := match o with OOk _ _ => true | _ => false end.

(* what the relation on traces has to satisfy for [req E] to pass through bind: [tc_app] glues the
   trace of a first part that succeeded to the trace of what follows *)
Record tcong (E : bool -> list event -> list event -> Prop) : Prop := {
  tc_refl : forall b e, E b e e;
  tc_app : forall b a a' c c', E true a a' -> E b c c' -> E b (a ++ c) (a' ++ c') }.

Lemma tcong_and E1 E2 : tcong E1 -> tcong E2 -> tcong (fun b a c => E1 b a c /\ E2 b a c).
Proof.
  intros [r1 a1] [r2 a2]. split; [split; auto|].
  intros b a a' c c' [H1 H2] [G1 G2]. split; auto.
Qed.

Section Req.
  Variable E : bool -> list event -> list event -> Prop.
  Hypothesis HE : tcong E.

  Definition req {A} (p q : prog A) : Prop :=
    forall known bs, fst (runt p known bs) = fst (runt q known bs) /\
                     E (is_ok (fst (runt p known bs))) (snd (runt p known bs)) (snd (runt q known bs)).

  Lemma req_refl A (p : prog A) : req p p.
  Proof. intros ? ?. split; [reflexivity|apply (tc_refl E HE)]. Qed.
  (* req looks at a program through runt only *)
  Lemma req_peq A (p p' q q' : prog A) : peq p p' -> peq q q' -> req p' q' -> req p q.
  Proof. intros Hp Hq H known bs. rewrite Hp, Hq. apply H. Qed.
  Lemma peq_req A (p q : prog A) : peq p q -> req p q.
  Proof. intros H. apply (req_peq _ p q q q H (peq_refl _ q)), req_refl. Qed.

  Lemma req_bind A B (p q : prog A) (f g : A -> prog B) :
    req p q -> (forall a, req (f a) (g a)) -> req (bindp p f) (bindp q g).
  Proof.
    intros Hp Hf known bs. rewrite !runt_bind. destruct (Hp known bs) as [H1 H2].
    destruct (runt p known bs) as [o1 e1]; destruct (runt q known bs) as [o2 e2]. cbn [fst snd] in *. subst o2.
    destruct o1 as [a r|r| |]; cbn [fst snd is_ok] in *; auto.
    destruct (Hf a known r) as [G1 G2]. cbn [fst snd]. split; [exact G1|now apply (tc_app E HE)].
  Qed.

  Lemma req_rep_nat A (c d : prog A) n : req c d -> req (rep_nat n c) (rep_nat n d).
  Proof.
    intros H. induction n as [|n IH]; cbn [rep_nat]; [apply req_refl|].
    apply req_bind; [exact H|]. intros a. apply req_bind; [exact IH|]. intros; apply req_refl.
  Qed.
  Lemma req_rep A (c d : prog A) n : req c d -> req (rep n c) (rep n d).
  Proof. intros H. eapply req_peq; [apply rep_rep_nat..|]. now apply req_rep_nat. Qed.

  (* decode_vec_chunked: [n / cl] full chunks and a remainder, each a preamble [pre k] followed by
     k elements, against n repetitions of an element-wise twin c' of c - provided one chunk of
     k <= cl elements is k twins (the twin accounts per element for what the preamble accounts
     per chunk) *)
  Theorem chunked_is_rep_twin A (c c' : prog A) (pre : N -> prog unit) (cl n : N) :
    0 < cl -> (forall k, k <= cl -> req (pre k ;;; rep k c) (rep_nat (N.to_nat k) c')) ->
    req (two_stage cl n (fun k => pre k ;;; rep k c)) (rep n c').
  Proof.
    intros Hcl Hpre. rewrite two_stage_rep. apply N.neq_0_lt_0 in Hcl. pose proof (N.mod_lt n cl Hcl) as Hlt.
    (* right-hand side: q * cl + r twins, regrouped as q groups of cl and one of r *)
    eapply req_peq; [apply peq_refl|eapply peq_trans; [apply rep_rep_nat|]|].
    { rewrite (N.div_mod' n cl) at 1. rewrite N2Nat.inj_add, N2Nat.inj_mul, Nat.mul_comm. apply rep_nat_groups. }
    set (q := n / cl). set (r := n mod cl) in *. apply req_bind.
    - eapply req_peq; [apply rep_rep_nat|apply peq_refl|]. apply req_rep_nat, Hpre, N.le_refl.
    - intros full. destruct (N.eqb_spec r 0) as [E0|E0].
      + rewrite E0. change (N.to_nat 0) with 0%nat. apply peq_req. intros known bs. cbn [rep_nat bindp]. now rewrite app_nil_r.
      + apply req_bind; [apply Hpre, N.lt_le_incl, Hlt|intros; apply req_refl].
  Qed.

  (* when the observer does not see the preamble at all, the twin is the element itself *)
  Corollary chunked_is_rep_gen A (c : prog A) (pre : N -> prog unit) (cl n : N) :
    (forall k B (p : prog B), req (pre k ;;; p) p) ->
    req (two_stage cl n (fun k => pre k ;;; rep k c)) (rep n c).
  Proof.
    intros Hpre. destruct (N.eq_dec cl 0) as [->|Hcl].
    - (* n / 0 = 0 and n mod 0 = n: the whole is the one, last chunk *)
      unfold two_stage. replace (n / 0) with 0 by now destruct n. replace (n mod 0) with n by now destruct n.
      change (0 =? 0) with true. cbn [bindp concat app].
      destruct (N.eqb_spec n 0) as [->|_]; [apply req_refl|].
      eapply req_peq; [apply peq_refl|apply peq_sym, peq_bind_ret_r|].
      apply req_bind; [apply Hpre|intros; apply req_refl].
    - apply chunked_is_rep_twin; [lia|]. intros k _.
      eapply req_peq; [apply peq_refl|apply peq_sym, rep_rep_nat|apply Hpre].
  Qed.
End Req.

Section Teq.
  Context (pi : list event -> list event) (pi_app : forall a b, pi (a ++ b) = pi a ++ pi b).

  Definition teq {A} (p q : prog A) : Prop :=
    forall known bs, fst (runt p known bs) = fst (runt q known bs) /\
                     pi (snd (runt p known bs)) = pi (snd (runt q known bs)).

  Lemma tcong_proj : tcong (fun _ a b => pi a = pi b).
  Proof using pi_app. split; intros; rewrite ?pi_app; congruence. Qed.

  Lemma teq_emit_invisible A h (p : prog A) : pi [EHook h] = [] -> teq (emit h ;;; p) p.
  Proof.
    intros Hh known bs. cbn [emit bindp runt]. unfold cons_ev. cbn [fst snd]. split; [reflexivity|].
    change (EHook h :: snd (runt p known bs)) with ([EHook h] ++ snd (runt p known bs)). now rewrite pi_app, Hh.
  Qed.

  (* decode_vec_chunked modulo pi, when the per-chunk preamble is invisible to pi *)
  Theorem chunked_is_rep_t A (c : prog A) (pre : N -> prog unit) (cl n : N) :
    0 < cl -> (forall k B (p : prog B), teq (pre k ;;; p) p) ->
    teq (full <- (if n / cl =? 0 then Ret [] else rep (n / cl) (pre cl ;;; rep cl c)) ;;
         (if n mod cl =? 0 then Ret (concat full)
          else last <- (pre (n mod cl) ;;; rep (n mod cl) c) ;; Ret (concat full ++ last)))
        (rep n c).
  Proof. intros _. exact (chunked_is_rep_gen _ tcong_proj A c pre cl n). Qed.
End Teq.

(* The additive variant: an N-valued measure of the trace (for instance the sum of the sizes
   announced to the memory tracker), compared on SUCCESSFUL runs only.  [seq mu p q]: p and q
   have the same outcome on every input and, when that outcome is a value, traces of equal measure. *)
Section Seq.
  Context (mu : list event -> N) (mu_app : forall a b, mu (a ++ b) = mu a + mu b) (mu_nil : mu [] = 0).

  Definition seq {A} (p q : prog A) : Prop :=
    forall known bs, fst (runt p known bs) = fst (runt q known bs) /\
                     (is_ok (fst (runt p known bs)) = true -> mu (snd (runt p known bs)) = mu (snd (runt q known bs))).

  Lemma tcong_meas : tcong (fun ok a b => ok = true -> mu a = mu b).
  Proof using mu_app.
    split; [reflexivity|]. intros b a a' c c' H1 H2 Hb. rewrite !mu_app, H1, H2; auto.
  Qed.

  Lemma seq_rep A (c d : prog A) n : seq c d -> seq (rep n c) (rep n d).
  Proof. exact (req_rep _ tcong_meas A c d n). Qed.

  (* decode_vec_chunked against an element-wise twin c' that accounts, per element, for what the
     chunk preamble accounts per chunk *)
  Theorem chunked_is_rep_s A (c c' : prog A) (pre : N -> prog unit) (cl n : N) :
    0 < cl -> (forall k, k <= cl -> seq (pre k ;;; rep k c) (rep_nat (N.to_nat k) c')) ->
    seq (full <- (if n / cl =? 0 then Ret [] else rep (n / cl) (pre cl ;;; rep cl c)) ;;
         (if n mod cl =? 0 then Ret (concat full)
          else last <- (pre (n mod cl) ;;; rep (n mod cl) c) ;; Ret (concat full ++ last)))
        (rep n c').
  Proof using mu_app mu_nil. exact (chunked_is_rep_twin _ tcong_meas A c c' pre cl n). Qed.
End Seq.

(* Layer 0: bytes, little-endian fixed width, shift/mask characterisations.
   Everything here is stdlib only and closed under the global context. *)
From Coq Require Export List NArith Lia ZArith ZifyN ZifyBool ZifyNat Bool.
From Coq.Strings Require Export Byte.
Export ListNotations.
Open Scope N_scope.
Global Arguments N.add : simpl never.
Global Arguments N.mul : simpl never.
Global Arguments N.sub : simpl never.
Global Arguments N.div : simpl never.
Global Arguments N.modulo : simpl never.
Global Arguments N.pow : simpl never.
Global Arguments N.shiftl : simpl never.
Global Arguments N.shiftr : simpl never.
Global Arguments N.lor : simpl never.
Global Arguments N.land : simpl never.
Global Arguments N.eqb : simpl never.
Global Arguments N.ltb : simpl never.
Global Arguments N.leb : simpl never.
Global Arguments N.of_nat : simpl never.
Global Arguments N.to_nat : simpl never.
Global Arguments N.size : simpl never.

Definition byte_of (v : N) : byte :=
  match Byte.of_N (v mod 256) with Some b => b | None => x00 end.

Lemma to_byte_of v : Byte.to_N (byte_of v) = v mod 256.
Proof.
  unfold byte_of. assert (H: v mod 256 < 256) by now apply N.mod_lt.
  destruct (Byte.of_N (v mod 256)) eqn:E.
  - now apply Byte.to_of_N in E.
  - apply Byte.of_N_None_iff, N.le_succ_l in E. now apply N.lt_nge in H.
Qed.

Lemma byte_of_to b : byte_of (Byte.to_N b) = b.
Proof.
  unfold byte_of. pose proof (Byte.to_N_bounded b).
  rewrite N.mod_small by lia. now rewrite Byte.of_to_N.
Qed.

Lemma byte_of_mod v : byte_of (v mod 256) = byte_of v.
Proof. unfold byte_of. now rewrite N.mod_mod by lia. Qed.

Lemma to_N_inj a b : Byte.to_N a = Byte.to_N b -> a = b.
Proof. intros H. rewrite <- (byte_of_to a), <- (byte_of_to b). now rewrite H. Qed.

(* n bytes, least significant first *)
Fixpoint le_enc (n : nat) (v : N) : list byte :=
  match n with O => [] | S n' => byte_of v :: le_enc n' (v / 256) end.

Fixpoint le_dec (l : list byte) : N :=
  match l with [] => 0 | b :: r => Byte.to_N b + 256 * le_dec r end.

Lemma le_enc_len n v : length (le_enc n v) = n.
Proof. revert v; induction n; simpl; auto. Qed.

Lemma le_dec_bound l : le_dec l < 256 ^ N.of_nat (length l).
Proof.
  induction l as [|b r IH]; cbn [le_dec length].
  - change (256 ^ N.of_nat 0) with 1. lia.
  - rewrite Nat2N.inj_succ, N.pow_succ_r'. pose proof (Byte.to_N_bounded b). lia.
Qed.

Lemma le_enc_dec l : le_enc (length l) (le_dec l) = l.
Proof.
  induction l as [|b r IH]; cbn [le_dec length le_enc]; [reflexivity|].
  pose proof (Byte.to_N_bounded b). f_equal.
  - apply to_N_inj. rewrite to_byte_of. symmetry. apply (N.mod_unique _ 256 (le_dec r)); lia.
  - rewrite <- (N.div_unique _ 256 (le_dec r) (Byte.to_N b)) by lia. exact IH.
Qed.

Lemma le_dec_enc_mod : forall n v, le_dec (le_enc n v) = v mod 256 ^ N.of_nat n.
Proof.
  induction n as [|n IH]; intros v.
  - change (256 ^ N.of_nat 0) with 1. simpl. now rewrite N.mod_1_r.
  - cbn [le_enc le_dec]. rewrite to_byte_of, IH, Nat2N.inj_succ, N.pow_succ_r'.
    now rewrite N.mod_mul_r by (try apply N.pow_nonzero; discriminate).
Qed.

Lemma le_dec_enc n v : v < 256 ^ N.of_nat n -> le_dec (le_enc n v) = v.
Proof. intros H. rewrite le_dec_enc_mod. now apply N.mod_small. Qed.

Lemma le_enc_mod : forall n v, le_enc n (v mod 256 ^ N.of_nat n) = le_enc n v.
Proof.
  intros n v. pose proof (le_enc_dec (le_enc n v)) as H.
  rewrite le_enc_len, le_dec_enc_mod in H. exact H.
Qed.

Lemma le_enc_inj n a b : a < 256 ^ N.of_nat n -> b < 256 ^ N.of_nat n ->
  le_enc n a = le_enc n b -> a = b.
Proof. intros Ha Hb H. rewrite <- (le_dec_enc n a Ha), <- (le_dec_enc n b Hb). now rewrite H. Qed.

Lemma div_pow256_S v n : v / 256 ^ N.of_nat (S n) = v / 256 / 256 ^ N.of_nat n.
Proof.
  now rewrite Nat2N.inj_succ, N.pow_succ_r', N.div_div by (try apply N.pow_nonzero; discriminate).
Qed.

Lemma le_enc_S_app n v : le_enc (S n) v = le_enc n v ++ [byte_of (v / 256 ^ N.of_nat n)].
Proof.
  revert v; induction n as [|n IH]; intros v.
  - change (256 ^ N.of_nat 0) with 1. cbn [le_enc app]. now rewrite N.div_1_r.
  - change (le_enc (S (S n)) v) with (byte_of v :: le_enc (S n) (v / 256)).
    rewrite IH. cbn [le_enc app]. now rewrite div_pow256_S.
Qed.

(* fixed-width wrap-around (`as uN`, wrapping shift results) *)
Definition wrap (bits : N) (v : N) : N := v mod 2 ^ bits.

Lemma wrap_small bits v : v < 2 ^ bits -> wrap bits v = v.
Proof. apply N.mod_small. Qed.

Lemma shl2 v : N.shiftl v 2 = 4 * v.
Proof. rewrite N.shiftl_mul_pow2. change (2^2) with 4. lia. Qed.
Lemma shr2 v : N.shiftr v 2 = v / 4.
Proof. rewrite N.shiftr_div_pow2. reflexivity. Qed.
Lemma shr8 v : N.shiftr v 8 = v / 256.
Proof. rewrite N.shiftr_div_pow2. reflexivity. Qed.

(* disjoint or of a low part and a shifted high part *)
Lemma lor_shift_add a b k : a < 2 ^ k -> N.lor a (N.shiftl b k) = a + b * 2 ^ k.
Proof.
  intros Ha.
  assert (Hd: N.land a (N.shiftl b k) = 0).
  { apply N.bits_inj. intro i. rewrite N.land_spec, N.bits_0.
    destruct (N.ltb_spec i k).
    - rewrite N.shiftl_spec_low by lia. apply Bool.andb_false_r.
    - assert (Hai: N.testbit a i = false).
      { destruct a as [|p]; [apply N.bits_0|]. apply N.bits_above_log2.
        assert (N.log2 (N.pos p) < k) by (apply N.log2_lt_pow2; lia). lia. }
      rewrite Hai. reflexivity. }
  rewrite <- N.lxor_lor by exact Hd. rewrite <- N.add_nocarry_lxor by exact Hd.
  now rewrite N.shiftl_mul_pow2.
Qed.

Lemma lor_low v k : k < 4 -> N.lor (4 * v) k = 4 * v + k.
Proof.
  intros Hk. rewrite <- shl2, N.lor_comm, lor_shift_add by exact Hk. rewrite shl2. lia.
Qed.

Lemma pow256 n : 256 ^ n = 2 ^ (8 * n).
Proof. change 256 with (2 ^ 8). now rewrite <- N.pow_mul_r. Qed.

Lemma size_le_iff v b : N.size v <= b <-> v < 2 ^ b.
Proof.
  destruct (N.eq_dec v 0) as [->|Hz].
  - change (N.size 0) with 0. lia.
  - rewrite N.size_log2, N.le_succ_l by exact Hz. symmetry. apply N.log2_lt_pow2. lia.
Qed.

Lemma size_le_bits v b : v < 2 ^ b -> N.size v <= b.
Proof. apply size_le_iff. Qed.

Definition take (n : nat) (bs : list byte) : option (list byte * list byte) :=
  if (n <=? length bs)%nat then Some (firstn n bs, skipn n bs) else None.

Lemma firstn_app_exact {A} (l r : list A) : firstn (length l) (l ++ r) = l.
Proof. now rewrite firstn_app, Nat.sub_diag, firstn_all, firstn_O, app_nil_r. Qed.
Lemma skipn_app_exact {A} (l r : list A) : skipn (length l) (l ++ r) = r.
Proof. now rewrite skipn_app, skipn_all, Nat.sub_diag. Qed.

Lemma take_app n l r : length l = n -> take n (l ++ r) = Some (l, r).
Proof.
  intros <-. unfold take. rewrite app_length.
  destruct (Nat.leb_spec (length l) (length l + length r)); [|lia].
  now rewrite firstn_app_exact, skipn_app_exact.
Qed.

Lemma take_inv n bs l r : take n bs = Some (l, r) -> bs = l ++ r /\ length l = n.
Proof.
  unfold take. destruct (Nat.leb_spec n (length bs)); [|discriminate].
  intros [= <- <-]. split; [now rewrite firstn_skipn|]. rewrite firstn_length. lia.
Qed.

Lemma take_None n bs : take n bs = None -> (length bs < n)%nat.
Proof. unfold take. destruct (Nat.leb_spec n (length bs)); [discriminate|auto]. Qed.

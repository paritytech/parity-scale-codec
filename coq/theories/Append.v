(* C15: append_or_new_impl of src/encode_append.rs.  Items are abstract: n items whose
   encodings concatenate to p (so the theorems hold for any item type, alias form and
   zero-sized items). *)
Require Import Scale.Bytes Scale.Eres Scale.Prog Scale.CompactImpl Scale.CompactSpec Scale.CompactProofs Scale.CompactTheorems.

Inductive ares := AOk (bs : list byte) | AErr | APanic.

(* `vec[..k].copy_from_slice(src)` : panics unless src has length k *)
Definition overwrite (k : N) (src vec : list byte) : option (list byte) :=
  if (N.of_nat (length src) =? k) && (k <=? N.of_nat (length vec))
  then Some (src ++ skipn (N.to_nat k) vec) else None.

Definition append (vec : list byte) (n : N) (p : list byte) : ares :=
  match vec with
  | [] =>
      (* compact_encode_len_to(&mut vec, items_to_append)? *)
      if u32max <? n then AErr
      else match enc_compact 4 n with EOk c => AOk (c ++ p) | _ => APanic end
  | _ =>
      match runo (dec_compact 4) true vec with
      | OOk old _ =>
          (* u32::try_from(items_to_append).ok().and_then(|n| old.checked_add(n)) *)
          if u32max <? n then AErr
          else let new := old + n in
               if u32max <? new then AErr
               else
                 let ol := len_compact 4 old in
                 let nl := len_compact 4 new in
                 match enc_compact 4 new with
                 | EOk c =>
                     if ol =? nl then
                       match overwrite ol c vec with Some v' => AOk (v' ++ p) | None => APanic end
                     else AOk (c ++ skipn (N.to_nat ol) vec ++ p)
                 | _ => APanic
                 end
      | OErr _ => AErr
      | _ => APanic
      end
  end.

Lemma skipn_prefix (old rest : list byte) : skipn (N.to_nat (N.of_nat (length old))) (old ++ rest) = rest.
Proof. rewrite Nat2N.id. apply skipn_app_exact. Qed.

Lemma overwrite_prefix new old rest : N.of_nat (length old) = N.of_nat (length new) ->
  overwrite (N.of_nat (length old)) new (old ++ rest) = Some (new ++ rest).
Proof.
  intros E. unfold overwrite. rewrite skipn_prefix, <- E, N.eqb_refl, app_length.
  now rewrite (proj2 (N.leb_le _ _)) by lia.
Qed.

(* after a valid count: the sum in canonical form, or an error when it cannot be represented;
   both branches of the code (in-place rewrite, reallocation) give the same bytes *)
Theorem append_counted c n body p : c <= u32max ->
  append (spec_compact c ++ body) n p =
  if c + n <=? u32max then AOk (spec_compact (c + n) ++ body ++ p) else AErr.
Proof.
  intros Hc. unfold append.
  destruct (spec_compact c ++ body) as [|b0 r0] eqn:E; [now apply app_eq_nil in E as [?%spec_compact_nonempty _]|].
  rewrite <- E, (proj2 (dec_count true _ c body)) by auto. clear E. cbv zeta.
  destruct (N.leb_spec (c + n) u32max) as [H|H].
  - rewrite !if_ge by lia.
    rewrite enc_compact_spec, !len_compact_any by (apply okwidth4 || apply u32_width; lia).
    destruct (N.eqb_spec (N.of_nat (length (spec_compact c))) (N.of_nat (length (spec_compact (c + n))))) as [El|_].
    + now rewrite overwrite_prefix, <- app_assoc.
    + now rewrite skipn_prefix.
  - destruct (u32max <? n); [reflexivity|]. now rewrite if_lt.
Qed.

Theorem append_spec c n body p : c + n <= u32max ->
  append (spec_compact c ++ body) n p = AOk (spec_compact (c + n) ++ body ++ p).
Proof. intros H. rewrite append_counted by lia. now rewrite (proj2 (N.leb_le _ _)). Qed.

(* the combined count cannot be represented: an error, never a wrong count *)
Theorem append_overflow_err c n body p : c <= u32max -> u32max < c + n ->
  append (spec_compact c ++ body) n p = AErr.
Proof. intros Hc H. rewrite append_counted by exact Hc. now rewrite (proj2 (N.leb_gt _ _)). Qed.

Theorem append_new n p :
  append [] n p = if n <=? u32max then AOk (spec_compact n ++ p) else AErr.
Proof.
  unfold append. destruct (N.leb_spec n u32max).
  - rewrite if_ge, enc_compact_spec by (assumption || apply okwidth4 || now apply u32_width). reflexivity.
  - now rewrite if_lt.
Qed.

(* every input is empty, or begins with a valid count, or is rejected *)
Lemma append_cases vec n p :
  vec = [] \/ (exists c body, c <= u32max /\ vec = spec_compact c ++ body) \/ (vec <> [] /\ append vec n p = AErr).
Proof.
  destruct vec as [|b0 r0]; [now left|right].
  destruct (compact_dec_no_panic 4 true (b0 :: r0) okwidth4) as [Hp Hf].
  destruct (runo (dec_compact 4) true (b0 :: r0)) as [c body|r| |] eqn:Ed.
  - left. exists c, body. now apply (dec_count true).
  - right. split; [discriminate|]. unfold append. now rewrite Ed.
  - now elim Hp.
  - now elim Hf.
Qed.

(* input that does not begin with a valid count is rejected *)
Theorem append_bad_prefix_err vec n p : vec <> [] ->
  (forall c body, c <= u32max -> vec <> spec_compact c ++ body) -> append vec n p = AErr.
Proof.
  intros Hne Hbad. destruct (append_cases vec n p) as [E|[(c & body & Hc & E)|[_ E]]]; [contradiction| |exact E].
  now apply Hbad in E.
Qed.

Theorem append_no_panic vec n p : append vec n p <> APanic.
Proof.
  destruct (append_cases vec n p) as [->|[(c & body & Hc & ->)|[_ ->]]]; [rewrite append_new|rewrite append_counted by exact Hc|];
    try destruct (_ <=? _); discriminate.
Qed.

(* any history of appends from the empty input is the encoding of the concatenation *)
Fixpoint append_history (acc : ares) (ops : list (N * list byte)) : ares :=
  match ops with
  | [] => acc
  | (n, p) :: r => match acc with AOk v => append_history (append v n p) r | e => e end
  end.

Definition total (ops : list (N * list byte)) : N := fold_right (fun o s => fst o + s) 0 ops.
Definition payload (ops : list (N * list byte)) : list byte := concat (map snd ops).

Theorem append_history_spec ops : forall c body, c + total ops <= u32max ->
  append_history (AOk (spec_compact c ++ body)) ops = AOk (spec_compact (c + total ops) ++ body ++ payload ops).
Proof.
  induction ops as [|[n p] r IH]; intros c body H.
  - cbn. now rewrite N.add_0_r, app_nil_r.
  - change (total ((n, p) :: r)) with (n + total r) in *. change (payload ((n, p) :: r)) with (p ++ payload r).
    cbn [append_history]. rewrite append_spec, IH by lia.
    now rewrite <- !app_assoc, N.add_assoc.
Qed.

Theorem append_history_from_empty n p ops : n + total ops <= u32max ->
  append_history (append [] n p) ops = AOk (spec_compact (n + total ops) ++ p ++ payload ops).
Proof.
  intros H. rewrite append_new. destruct (N.leb_spec n u32max); [|lia]. now apply append_history_spec.
Qed.

(* C17 / C05: what the derive macros accept, as a function of the type definition
   (derive/src/utils.rs: try_get_variants, variant_index, const_eval_check_variant_indexes with
   its two const fn loops as written; encode.rs / decode.rs: attribute exclusivity; lib.rs:
   the CompactAs shape; unions). *)
Require Import Scale.Bytes Scale.Codec.

Inductive isrc := IAttr (n : N) | IDisc (z : Z) | IPos.
Record field := mkF { fskip : bool; fcompact : bool; fencas : bool }.
Record variant := mkV { vskip : bool; vsrc : isrc; vfields : list field }.
Inductive def := DStruct (fs : list field) | DEnum (vs : list variant) | DUnion.

(* `(#index) as usize`: index attribute, else the discriminant expression, else the position
   among the non-skipped variants *)
Definition as_usize (z : Z) : N := Z.to_N (z mod 2 ^ 64).
Fixpoint eff_indices (pos : N) (vs : list variant) : list N :=
  match vs with
  | [] => []
  | v :: r =>
      if vskip v then eff_indices pos r
      else (match vsrc v with IAttr n => n | IDisc z => as_usize z | IPos => pos end) :: eff_indices (pos + 1) r
  end.

(* search_for_invalid_index: the first entry above 255 *)
Fixpoint first_invalid (l : list N) (i : nat) : option nat :=
  match l with
  | [] => None
  | x :: r => if 255 <? x then Some i else first_invalid r (S i)
  end.

(* duplicate_info: the first (i, j), i < j, with equal entries *)
Fixpoint find_eq (x : N) (l : list N) (j : nat) : option nat :=
  match l with
  | [] => None
  | y :: r => if x =? y then Some j else find_eq x r (S j)
  end.
Fixpoint dup_info (l : list N) (i : nat) : option (nat * nat) :=
  match l with
  | [] => None
  | x :: r => match find_eq x r (S i) with
              | Some j => Some (i, j)
              | None => dup_info r (S i)
              end
  end.

Definition b2n (b : bool) : nat := if b then 1%nat else 0%nat.
Definition field_ok (f : field) : bool := (b2n (fskip f) + b2n (fcompact f) + b2n (fencas f) <=? 1)%nat.
Definition live (vs : list variant) : list variant := filter (fun v => negb (vskip v)) vs.

Definition derive_accepts (d : def) : bool :=
  match d with
  | DUnion => false
  | DStruct fs => forallb field_ok fs
  | DEnum vs =>
      let idx := eff_indices 0 vs in
      (length (live vs) <=? 256)%nat &&
      (match first_invalid idx 0 with None => true | Some _ => false end) &&
      (match dup_info idx 0 with None => true | Some _ => false end) &&
      forallb (fun v => forallb field_ok (vfields v)) (live vs)
  end.

Definition compact_as_accepts (d : def) : bool :=
  match d with
  | DStruct fs => (length (filter (fun f => negb (fskip f)) fs) =? 1)%nat
  | _ => false
  end.

Lemma first_invalid_none l : forall i, first_invalid l i = None <-> Forall (fun x => x <= 255) l.
Proof.
  induction l as [|x r IH]; intros i; cbn [first_invalid]; [split; auto|].
  rewrite Forall_cons_iff, <- (IH (S i)). destruct (N.ltb_spec 255 x); [split; [discriminate|lia]|tauto].
Qed.

Lemma first_invalid_some l : forall i k, first_invalid l i = Some k ->
  (i <= k)%nat /\ 255 < nth (k - i) l 0 /\ Forall (fun x => x <= 255) (firstn (k - i) l).
Proof.
  induction l as [|x r IH]; intros i k; cbn [first_invalid]; [discriminate|].
  destruct (N.ltb_spec 255 x).
  - intros [= <-]. rewrite Nat.sub_diag. cbn. repeat split; auto.
  - intros H1. apply IH in H1 as (Hk & Hn & Hf). replace (k - i)%nat with (S (k - S i)) by lia.
    cbn [nth firstn]. repeat split; [lia|exact Hn|constructor; [lia|exact Hf]].
Qed.

Lemma find_eq_none x l : forall j, find_eq x l j = None <-> ~ In x l.
Proof.
  induction l as [|y r IH]; intros j; cbn [find_eq In]; [split; auto|].
  destruct (N.eqb_spec x y) as [->|Hxy]; [split; [discriminate|intros []; auto]|].
  rewrite (IH (S j)). intuition congruence.
Qed.

Lemma dup_info_none l : forall i, dup_info l i = None <-> NoDup l.
Proof.
  induction l as [|x r IH]; intros i; cbn [dup_info]; [split; [constructor|reflexivity]|].
  rewrite NoDup_cons_iff, <- (find_eq_none x r (S i)), <- (IH (S i)).
  destruct (find_eq x r (S i)); intuition discriminate.
Qed.

Lemma andb_iff (a b : bool) (P Q : Prop) : (a = true <-> P) -> (b = true <-> Q) -> (a && b = true <-> P /\ Q).
Proof. intros <- <-. apply andb_true_iff. Qed.
Lemma is_none_iff {A} (o : option A) (P : Prop) : (o = None <-> P) ->
  (match o with None => true | Some _ => false end = true <-> P).
Proof. intros <-. destruct o; split; congruence. Qed.
Lemma forallb_iff {A} (f : A -> bool) (P : A -> Prop) l : (forall x, f x = true <-> P x) ->
  (forallb f l = true <-> Forall P l).
Proof. intros H. rewrite forallb_forall, Forall_forall. split; intros F x Hx; apply H, F, Hx. Qed.

Theorem derive_accepts_iff d :
  derive_accepts d = true <->
  match d with
  | DUnion => False
  | DStruct fs => Forall (fun f => field_ok f = true) fs
  | DEnum vs =>
      (length (live vs) <= 256)%nat /\
      Forall (fun x => x <= 255) (eff_indices 0 vs) /\ NoDup (eff_indices 0 vs) /\
      Forall (fun v => Forall (fun f => field_ok f = true) (vfields v)) (live vs)
  end.
Proof.
  destruct d as [fs|vs|]; cbn [derive_accepts].
  - apply forallb_iff. reflexivity.
  - rewrite <- !andb_assoc. repeat apply andb_iff.
    + apply Nat.leb_le.
    + apply is_none_iff, first_invalid_none.
    + apply is_none_iff, dup_info_none.
    + apply forallb_iff. intros v. apply forallb_iff. reflexivity.
  - split; [discriminate|contradiction].
Qed.

(* the faults of the statement, read off the characterisation *)
Corollary rejected_when_index_too_big vs : Exists (fun x => 255 < x) (eff_indices 0 vs) -> derive_accepts (DEnum vs) = false.
Proof.
  intros H. apply not_true_iff_false. intros (_ & Hf & _)%derive_accepts_iff.
  apply Exists_exists in H as (x & Hx & Hlt). rewrite Forall_forall in Hf. specialize (Hf x Hx). lia.
Qed.
Corollary rejected_when_indices_collide vs : ~ NoDup (eff_indices 0 vs) -> derive_accepts (DEnum vs) = false.
Proof. intros H. apply not_true_iff_false. now intros (_ & _ & Hn & _)%derive_accepts_iff. Qed.
Corollary rejected_when_too_many_variants vs : (256 < length (live vs))%nat -> derive_accepts (DEnum vs) = false.
Proof. intros H. apply not_true_iff_false. intros (Hl & _)%derive_accepts_iff. lia. Qed.
Corollary rejected_union : derive_accepts DUnion = false.
Proof. reflexivity. Qed.

(* accepted enums have pairwise distinct indices below 256: what the round trip of derived enums
   (Codec.idx_ok) needs *)
Fixpoint mk_variants (idx : list N) (payloads : list ty) : variants :=
  match idx, payloads with
  | i :: ir, t :: tr => VsCons i t (mk_variants ir tr)
  | _, _ => VsNil
  end.

Lemma idx_in_mk i idx : forall payloads, idx_in i (mk_variants idx payloads) = true -> In i idx.
Proof.
  induction idx as [|j ir IH]; intros [|t tr]; cbn [mk_variants idx_in]; try discriminate.
  intros [->%N.eqb_eq|H]%orb_prop; [now left|right; eauto].
Qed.

Lemma idx_ok_mk idx : Forall (fun x => x <= 255) idx -> NoDup idx ->
  forall payloads, idx_ok (mk_variants idx payloads) = true.
Proof.
  induction idx as [|i ir IH]; intros Hf Hn [|t tr]; cbn [mk_variants idx_ok]; try reflexivity.
  apply Forall_cons_iff in Hf as [Hi Hf]. apply NoDup_cons_iff in Hn as [Hni Hn]. rewrite IH by assumption.
  destruct (idx_in i (mk_variants ir tr)) eqn:E; [apply idx_in_mk in E; contradiction|].
  rewrite (proj2 (N.ltb_lt i 256)) by lia. reflexivity.
Qed.

Theorem accepted_indices_ok vs payloads : derive_accepts (DEnum vs) = true ->
  length payloads = length (eff_indices 0 vs) -> idx_ok (mk_variants (eff_indices 0 vs) payloads) = true.
Proof. intros (_ & Hf & Hn & _)%derive_accepts_iff _. now apply idx_ok_mk. Qed.

Theorem compact_as_accepts_iff d :
  compact_as_accepts d = true <-> exists fs, d = DStruct fs /\ length (filter (fun f => negb (fskip f)) fs) = 1%nat.
Proof.
  destruct d as [fs|vs|]; cbn [compact_as_accepts].
  - rewrite Nat.eqb_eq. split; [eauto|now intros (? & [= <-] & ?)].
  - split; [discriminate|now intros (? & [=] & _)].
  - split; [discriminate|now intros (? & [=] & _)].
Qed.

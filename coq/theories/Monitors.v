(* The three input wrappers as monitors: what a decode through them returns, for
   EVERY decoder program (hence every type), derived from [run_runt]. *)
Require Import Scale.Bytes Scale.Prog Scale.ProgFacts.

(* any monitor: a limited decode is the unlimited one or an error *)
Theorem run_transparent (m : monitor) A (p : prog A) known bs (s : mst m) :
  match run m p known bs s with
  | ROk v rest _ => runo p known bs = OOk v rest
  | RErr _ => True
  | RPanic => runo p known bs = OPanic
  | RNoFuel => runo p known bs = ONoFuel
  end.
Proof.
  rewrite run_feed. destruct (feed m s (snd (runt p known bs))) as [s' [|]]; [|exact I].
  destruct (runo p known bs); cbn [lift_out]; auto.
Qed.

Theorem run_err_of_err (m : monitor) A (p : prog A) known bs (s : mst m) r :
  runo p known bs = OErr r -> exists s', run m p known bs s = RErr s'.
Proof.
  intros H. rewrite run_feed, H. destruct (feed m s (snd (runt p known bs))) as [s' [|]]; cbn [lift_out]; eauto.
Qed.

(* any stack of wrappers whose limits the trace does not reach is invisible *)
Theorem nonbinding_stack_transparent (m : monitor) A (p : prog A) known bs (s : mst m) :
  snd (feed m s (snd (runt p known bs))) = true ->
  exists s', run m p known bs s = lift_out (runo p known bs) s'.
Proof.
  intros H. rewrite run_feed. destruct (feed m s (snd (runt p known bs))) as [s' ok]. cbn [snd] in H. subst ok. eauto.
Qed.

Theorem counted_feed evs : forall c, c <= u64max ->
  feed counted c evs = (N.min u64max (c + sum_reads evs), true).
Proof.
  induction evs as [|e r IH]; intros c Hc; cbn [feed sum_reads].
  - f_equal. lia.
  - destruct e as [n|h]; cbn [mstep counted].
    + rewrite IH by apply N.le_min_l. unfold sat_add. f_equal. lia.
    + now apply IH.
Qed.

(* the count after a decode, successful or not, is the number of bytes the wrapped
   input delivered (saturating at u64::MAX, never wrapping); on failure [rest] is
   what the wrapped input still holds at the failure point *)
Theorem counted_exact A (p : prog A) known bs :
  match run counted p known bs 0, runo p known bs with
  | ROk v rest c, OOk v' rest' =>
      v = v' /\ rest = rest' /\ c = N.min u64max (N.of_nat (length bs) - N.of_nat (length rest))
  | RErr c, OErr rest => c = N.min u64max (N.of_nat (length bs) - N.of_nat (length rest))
  | RPanic, OPanic => True
  | RNoFuel, ONoFuel => True
  | _, _ => False
  end.
Proof.
  rewrite run_runt, <- runt_fst. pose proof (reads_account A p known bs) as Hacc.
  destruct (runt p known bs) as [o evs]. cbn [fst].
  rewrite counted_feed by apply N.le_0_l.
  destruct o as [v rest|rest| |]; cbn [lift_out]; auto.
  - repeat split; auto. f_equal. lia.
  - f_equal. lia.
Qed.

Lemma counted_ok A (p : prog A) known bs rest v : runo p known (bs ++ rest) = OOk v rest ->
  N.of_nat (length bs) <= u64max -> run counted p known (bs ++ rest) 0 = ROk v rest (N.of_nat (length bs)).
Proof.
  intros Hp Hl. pose proof (counted_exact A p known (bs ++ rest)) as H. rewrite Hp in H.
  destruct (run counted p known (bs ++ rest) 0); try contradiction.
  destruct H as (-> & -> & ->). f_equal. rewrite app_length. lia.
Qed.

(* the deepest nesting the trace reaches, starting at depth d *)
Fixpoint max_depth (d : N) (evs : list event) : N :=
  match evs with
  | [] => d
  | EHook HDescend :: r => N.max (d + 1) (max_depth (d + 1) r)
  | EHook HAscend :: r => N.max d (max_depth (d - 1) r)
  | _ :: r => max_depth d r
  end.

Lemma max_depth_ge d evs : d <= max_depth d evs.
Proof.
  revert d; induction evs as [|e r IH]; intros d; cbn [max_depth]; [lia|].
  destruct e as [n|[| |n|n]]; try apply IH; lia.
Qed.

Lemma max_leb a b L : (N.max a b <=? L) = (a <=? L) && (b <=? L).
Proof. apply Bool.eq_iff_eq_true. rewrite andb_true_iff, !N.leb_le. apply N.max_lub_iff. Qed.

(* the depth wrapper accepts a trace iff its deepest nesting stays within the limit *)
Theorem depth_feed_iff L evs : forall d, d <= L ->
  snd (feed (depthmon L) d evs) = (max_depth d evs <=? L).
Proof.
  induction evs as [|e r IH]; intros d Hd; cbn [feed max_depth].
  - symmetry. now apply N.leb_le.
  - destruct e as [n|[| |n|n]]; cbn [mstep depthmon]; try (now apply IH); rewrite max_leb.
    + destruct (N.leb_spec (d + 1) L) as [H|H]; [now apply IH|reflexivity].
    + rewrite (proj2 (N.leb_le d L) Hd). apply IH. lia.
Qed.

(* exact characterisation, for every program: with limit L the decode returns what the
   unlimited decode returns if the nesting of its trace is at most L, and an error otherwise *)
Theorem depth_limit_exact A (p : prog A) known bs L :
  let '(o, evs) := runt p known bs in
  if max_depth 0 evs <=? L
  then exists d, run (depthmon L) p known bs 0 = lift_out o d
  else exists d, run (depthmon L) p known bs 0 = RErr d.
Proof.
  rewrite run_runt. destruct (runt p known bs) as [o evs].
  pose proof (depth_feed_iff L evs 0 ltac:(lia)) as H.
  destruct (feed (depthmon L) 0 evs) as [d ok]. cbn [snd] in H. rewrite <- H.
  destruct ok; eauto.
Qed.

Corollary depth_limit_monotone A (p : prog A) known bs L L' v rest d :
  L <= L' -> run (depthmon L) p known bs 0 = ROk v rest d ->
  exists d', run (depthmon L') p known bs 0 = ROk v rest d'.
Proof.
  intros HL H. pose proof (depth_limit_exact A p known bs L) as E.
  pose proof (depth_limit_exact A p known bs L') as E'.
  destruct (runt p known bs) as [o evs].
  destruct (N.leb_spec (max_depth 0 evs) L); destruct E as [d0 E]; rewrite E in H; [|discriminate].
  destruct (N.leb_spec (max_depth 0 evs) L'); [|lia]. destruct E' as [d' E']. exists d'. rewrite E'.
  destruct o; try discriminate. now injection H as -> ->.
Qed.

Fixpoint used_after (u : N) (evs : list event) : N :=
  match evs with
  | [] => u
  | EHook (HAlloc n) :: r => used_after (sat_add usize_max u n) r
  | _ :: r => used_after u r
  end.
Fixpoint has_alloc (evs : list event) : bool :=
  match evs with
  | [] => false
  | EHook (HAlloc _) :: _ => true
  | _ :: r => has_alloc r
  end.

Lemma used_after_ge u evs : u <= usize_max -> u <= used_after u evs.
Proof.
  revert u; induction evs as [|e r IH]; intros u Hu; cbn [used_after]; [lia|].
  destruct e as [n|[| |n|n]]; try (apply IH; exact Hu).
  unfold sat_add. etransitivity; [|apply IH]; lia.
Qed.

Lemma used_after_quiet evs : forall u, has_alloc evs = false -> used_after u evs = u.
Proof.
  induction evs as [|e r IH]; intros u Hh; [reflexivity|].
  destruct e as [n|[| |n|n]]; cbn [has_alloc used_after] in *; try discriminate; now apply IH.
Qed.

(* the memory wrapper accepts a trace iff the tracked usage stays below the limit
   (it compares after adding: used >= limit fails) *)
Theorem mem_feed_iff L evs : forall u,
  snd (feed (memmon L) u evs) = negb (has_alloc evs) || (used_after u evs <? L).
Proof.
  induction evs as [|e r IH]; intros u; cbn [feed has_alloc used_after]; [reflexivity|].
  destruct e as [n|[| |n|n]]; cbn [mstep memmon]; try (now apply IH).
  cbn [negb orb].
  set (u' := sat_add usize_max u n). assert (Hu': u' <= usize_max) by (unfold u', sat_add; lia).
  pose proof (used_after_ge u' r Hu') as Hge.
  destruct (N.leb_spec L u') as [H|H]; cbn [negb].
  - cbn [snd]. symmetry. apply N.ltb_ge. lia.
  - rewrite IH.
    destruct (has_alloc r) eqn:Eh; cbn [negb orb]; [reflexivity|].
    (* no further allocation: usage stays u' *)
    symmetry. apply N.ltb_lt. now rewrite used_after_quiet.
Qed.

(* while the wrapper accepts, its state is the tracked usage *)
Lemma mem_feed_state L evs : forall u,
  snd (feed (memmon L) u evs) = true -> fst (feed (memmon L) u evs) = used_after u evs.
Proof.
  induction evs as [|e r IH]; intros u; cbn [feed used_after]; [reflexivity|].
  destruct e as [n|[| |n|n]]; cbn [mstep memmon]; try apply IH.
  destruct (L <=? sat_add usize_max u n); cbn [negb]; [discriminate|apply IH].
Qed.

(* the threshold: U = tracked usage of the input.  Limits above U are transparent;
   if U > 0 (or any allocation was announced) limits up to U fail *)
Theorem mem_limit_threshold A (p : prog A) known bs L :
  let '(o, evs) := runt p known bs in
  let U := used_after 0 evs in
  (U < L -> exists u, run (memmon L) p known bs 0 = lift_out o u) /\
  (has_alloc evs = true -> L <= U -> exists u, run (memmon L) p known bs 0 = RErr u) /\
  (0 < U -> has_alloc evs = true).
Proof.
  rewrite run_runt. destruct (runt p known bs) as [o evs]. cbv zeta.
  pose proof (mem_feed_iff L evs 0) as H.
  destruct (feed (memmon L) 0 evs) as [u ok]. cbn [snd] in H. subst ok.
  split; [|split].
  - intros HU. apply N.ltb_lt in HU. rewrite HU, orb_true_r. eauto.
  - intros Ha HU. apply N.ltb_ge in HU. rewrite Ha, HU. cbn [negb orb]. eauto.
  - intros HU. destruct (has_alloc evs) eqn:Eh; [reflexivity|].
    rewrite used_after_quiet in HU by exact Eh. lia.
Qed.

(* what the unlimited wrapper reports is U *)
Theorem mem_used_is_U A (p : prog A) known bs :
  let '(o, evs) := runt p known bs in
  used_after 0 evs < usize_max ->
  run (memmon usize_max) p known bs 0 = lift_out o (used_after 0 evs).
Proof.
  rewrite run_runt. destruct (runt p known bs) as [o evs]. intros HU.
  pose proof (mem_feed_iff usize_max evs 0) as H.
  pose proof (mem_feed_state usize_max evs 0) as Hs.
  destruct (feed (memmon usize_max) 0 evs) as [u ok]. cbn [fst snd] in *.
  apply N.ltb_lt in HU. rewrite HU, orb_true_r in H. subst ok. now rewrite Hs.
Qed.

(* a stack accepts a trace iff each layer, fed the same trace on its own, accepts it *)
Lemma feed_mstack_iff (i o : monitor) evs : forall (si : mst i) (so : mst o),
  snd (feed (mstack i o) (si, so) evs) = snd (feed i si evs) && snd (feed o so evs).
Proof.
  induction evs as [|e r IH]; intros si so; cbn [feed]; [reflexivity|].
  cbn [mstep mstack fst snd].
  destruct (mstep i e si) as [si' [|]]; [|reflexivity].
  destruct (mstep o e so) as [so' [|]]; [apply IH|cbn [snd]; now rewrite andb_false_r].
Qed.

Lemma feed_mstack (i o : monitor) evs : forall (si : mst i) (so : mst o),
  snd (feed (mstack i o) (si, so) evs) = true ->
  snd (feed i si evs) = true /\ snd (feed o so evs) = true.
Proof. intros si so H. rewrite feed_mstack_iff in H. now apply andb_prop. Qed.

Lemma feed_mstack_accepts (i o : monitor) evs : forall (si : mst i) (so : mst o),
  snd (feed i si evs) = true -> snd (feed o so evs) = true ->
  snd (feed (mstack i o) (si, so) evs) = true.
Proof. intros si so Hi Ho. now rewrite feed_mstack_iff, Hi, Ho. Qed.

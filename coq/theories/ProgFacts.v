(* Generic facts about the Prog monad, valid for every decoder written in it. *)
Require Import Scale.Bytes Scale.Prog.

Lemma runt_bind A B (p : prog A) (f : A -> prog B) known : forall bs,
  runt (bindp p f) known bs =
  match runt p known bs with
  | (OOk a r, evs) => (fst (runt (f a) known r), evs ++ snd (runt (f a) known r))
  | (OErr r, evs) => (OErr r, evs)
  | (OPanic, evs) => (OPanic, evs)
  | (ONoFuel, evs) => (ONoFuel, evs)
  end.
Proof.
  induction p as [a| | | |n k IH|k IH|nd k IH|h k IH]; intros bs; cbn [bindp runt]; auto.
  - cbn. now destruct (runt (f a) known bs).
  - destruct (avail n bs); auto. rewrite IH. unfold cons_ev.
    destruct (runt (k (firstn (N.to_nat n) bs)) known (skipn (N.to_nat n) bs)) as [[a r|r| |] evs]; reflexivity.
  - destruct bs as [|b r0]; auto. rewrite IH. unfold cons_ev.
    destruct (runt (k b) known r0) as [[a r|r| |] evs]; reflexivity.
  - destruct (known && negb (avail nd bs)); auto.
  - rewrite IH. unfold cons_ev.
    destruct (runt k known bs) as [[a r|r| |] evs]; reflexivity.
Qed.

Lemma runt_fst A (p : prog A) known : forall bs, fst (runt p known bs) = runo p known bs.
Proof.
  induction p as [a| | | |n k IH|k IH|nd k IH|h k IH]; intros bs; cbn [runt runo]; auto.
  - destruct (avail n bs); auto. cbn. apply IH.
  - destruct bs; auto. cbn. apply IH.
  - destruct (known && negb (avail nd bs)); auto.
  - cbn. apply IH.
Qed.

Lemma runt_bind_ok A B (p : prog A) (f : A -> prog B) known bs a r : runo p known bs = OOk a r ->
  snd (runt (bindp p f) known bs) = snd (runt p known bs) ++ snd (runt (f a) known r).
Proof. rewrite <- runt_fst, runt_bind. destruct (runt p known bs) as [o e]. cbn [fst]. now intros ->. Qed.
Arguments runt_bind_ok {A B p} f {known bs a r}.

Lemma runt_bind_inv A B (p : prog A) (f : A -> prog B) known bs v r evs :
  runt (bindp p f) known bs = (OOk v r, evs) ->
  exists a r1 e1 e2, runt p known bs = (OOk a r1, e1) /\ runt (f a) known r1 = (OOk v r, e2) /\ evs = e1 ++ e2.
Proof.
  rewrite runt_bind. destruct (runt p known bs) as [[a r1|r1| |] e1]; try discriminate.
  destruct (runt (f a) known r1) as [o e2] eqn:Ef. cbn [fst snd]. intros [= -> <-].
  now exists a, r1, e1, e2.
Qed.

Lemma runt_emit_inv A h (p : prog A) known bs o evs :
  runt (emit h ;;; p) known bs = (o, evs) -> exists e, runt p known bs = (o, e) /\ evs = EHook h :: e.
Proof. cbn [emit bindp runt]. unfold cons_ev. destruct (runt p known bs) as [o' e]. intros [= <- <-]. eauto. Qed.

Lemma runo_bind A B (p : prog A) (f : A -> prog B) known : forall bs,
  runo (bindp p f) known bs =
  match runo p known bs with
  | OOk a r => runo (f a) known r
  | OErr r => OErr r
  | OPanic => OPanic
  | ONoFuel => ONoFuel
  end.
Proof.
  intros bs. rewrite <- !runt_fst, runt_bind.
  destruct (runt p known bs) as [[a r|r| |] evs]; [apply runt_fst|reflexivity..].
Qed.

Lemma runo_read_bind A (k : N) (f : list byte -> prog A) known bs :
  runo (b <- read k ;; f b) known bs =
  match take (N.to_nat k) bs with
  | Some (b, r) => runo (f b) known r
  | None => OErr bs
  end.
Proof.
  cbn [read bindp runo]. rewrite avail_spec. unfold take.
  destruct (N.leb_spec k (N.of_nat (length bs))); destruct (Nat.leb_spec (N.to_nat k) (length bs)); try lia; reflexivity.
Qed.

Lemma runo_read_byte_bind A (f : byte -> prog A) known bs :
  runo (p <- read_byte ;; f p) known bs =
  match bs with [] => OErr [] | p :: r => runo (f p) known r end.
Proof. cbn [read_byte bindp runo]. destruct bs; reflexivity. Qed.

(* the structural theorem: a monitored run is the traced run cut at the first rejected event *)
Theorem run_runt (m : monitor) A (p : prog A) known : forall bs (s : mst m),
  run m p known bs s =
  let '(o, evs) := runt p known bs in
  match feed m s evs with
  | (s', true) => lift_out o s'
  | (s', false) => RErr s'
  end.
Proof.
  induction p as [a| | | |n k IH|k IH|nd k IH|h k IH]; intros bs s; cbn [run runt]; auto.
  - destruct (avail n bs); auto. unfold cons_ev.
    specialize (IH (firstn (N.to_nat n) bs) (skipn (N.to_nat n) bs)).
    destruct (runt (k (firstn (N.to_nat n) bs)) known (skipn (N.to_nat n) bs)) as [o evs].
    cbn [fst snd feed]. destruct (mstep m (ERead n) s) as [s' [|]]; auto.
  - destruct bs as [|b r0]; auto. unfold cons_ev.
    specialize (IH b r0).
    destruct (runt (k b) known r0) as [o evs].
    cbn [fst snd feed]. destruct (mstep m (ERead 1) s) as [s' [|]]; auto.
  - destruct (known && negb (avail nd bs)); auto.
  - unfold cons_ev. specialize (IH bs).
    destruct (runt k known bs) as [o evs].
    cbn [fst snd feed]. destruct (mstep m (EHook h) s) as [s' [|]]; auto.
Qed.

(* [run_runt] with outcome and trace taken apart *)
Lemma run_feed (m : monitor) A (p : prog A) known bs (s : mst m) :
  run m p known bs s = let (s', ok) := feed m s (snd (runt p known bs)) in
                       if ok then lift_out (runo p known bs) s' else RErr s'.
Proof.
  rewrite run_runt, <- runt_fst. destruct (runt p known bs) as [o evs]. cbn [fst snd].
  destruct (feed m s evs) as [s' [|]]; reflexivity.
Qed.

Lemma feed_null evs : feed nullmon tt evs = (tt, true).
Proof. induction evs as [|e r IH]; cbn; auto. Qed.

Corollary run_null A (p : prog A) known bs :
  run nullmon p known bs tt = lift_out (runo p known bs) tt.
Proof. now rewrite run_feed, feed_null. Qed.

Lemma feed_app m s a b :
  feed m s (a ++ b) = match feed m s a with
                      | (s', true) => feed m s' b
                      | (s', false) => (s', false)
                      end.
Proof.
  revert s; induction a as [|e a IH]; intros s; cbn [feed app]; auto.
  destruct (mstep m e s) as [s' [|]]; auto.
Qed.

Fixpoint sum_reads (evs : list event) : N :=
  match evs with
  | [] => 0
  | ERead n :: r => n + sum_reads r
  | EHook _ :: r => sum_reads r
  end.

Lemma sum_reads_app a b : sum_reads (a ++ b) = sum_reads a + sum_reads b.
Proof. induction a as [|e a IH]; cbn [app sum_reads]; [lia|]. destruct e as [n|h]; lia. Qed.

(* when a run ends, in a value or in an error, what is left is the input without its first
   [sum_reads evs] bytes: the read events say how much was taken, and it was taken from the front *)
Theorem runt_consumed A (p : prog A) known : forall bs,
  match runt p known bs with
  | (OOk _ rest, evs) | (OErr rest, evs) => dropn (N.to_nat (sum_reads evs)) bs = Some rest
  | _ => True
  end.
Proof.
  induction p as [a| | | |n k IH|k IH|nd k IH|h k IH]; intros bs; cbn [runt]; auto.
  - destruct (avail n bs) eqn:Ha; [|reflexivity].
    specialize (IH (firstn (N.to_nat n) bs) (skipn (N.to_nat n) bs)). unfold cons_ev.
    destruct (runt (k (firstn (N.to_nat n) bs)) known (skipn (N.to_nat n) bs)) as [[a r|r| |] evs];
      cbn [fst snd sum_reads]; auto; now rewrite N2Nat.inj_add, dropn_add, (avail_dropn _ _ Ha).
  - destruct bs as [|b r0]; [reflexivity|]. specialize (IH b r0). unfold cons_ev.
    destruct (runt (k b) known r0) as [[a r|r| |] evs]; cbn [fst snd sum_reads]; auto;
      now rewrite N2Nat.inj_add, dropn_add.
  - destruct (known && negb (avail nd bs)); [reflexivity|apply IH].
  - specialize (IH bs). unfold cons_ev. destruct (runt k known bs) as [[a r|r| |] evs]; auto.
Qed.

Corollary reads_account A (p : prog A) known : forall bs,
  match runt p known bs with
  | (OOk _ rest, evs) | (OErr rest, evs) => N.of_nat (length bs) = sum_reads evs + N.of_nat (length rest)
  | _ => True
  end.
Proof.
  intros bs. pose proof (runt_consumed A p known bs) as H.
  destruct (runt p known bs) as [[a r|r| |] evs]; auto; apply dropn_some in H; lia.
Qed.

Corollary runo_suffix A (p : prog A) known : forall bs,
  match runo p known bs with
  | OOk _ rest | OErr rest => exists pre, bs = pre ++ rest
  | _ => True
  end.
Proof.
  intros bs. pose proof (runt_consumed A p known bs) as H. rewrite <- runt_fst.
  destruct (runt p known bs) as [[a r|r| |] evs]; cbn [fst]; auto; apply dropn_some in H; eexists; apply H.
Qed.

Lemma runo_ret A (a : A) known bs : runo (Ret a) known bs = OOk a bs.
Proof. reflexivity. Qed.

(* program equivalence = same traced behaviour on every input (hence, by
   [run_runt], same behaviour under every monitor) *)
Definition peq {A} (p q : prog A) : Prop := forall known bs, runt p known bs = runt q known bs.

Lemma peq_refl A (p : prog A) : peq p p. Proof. intros ? ?; reflexivity. Qed.
Lemma peq_sym A (p q : prog A) : peq p q -> peq q p. Proof. intros H ? ?; symmetry; apply H. Qed.
Lemma peq_trans A (p q r : prog A) : peq p q -> peq q r -> peq p r.
Proof. intros H1 H2 ? ?; rewrite H1; apply H2. Qed.

Lemma peq_bind A B (p q : prog A) (f g : A -> prog B) :
  peq p q -> (forall a, peq (f a) (g a)) -> peq (bindp p f) (bindp q g).
Proof.
  intros Hp Hf known bs. rewrite !runt_bind, Hp.
  destruct (runt q known bs) as [[a r|r| |] evs]; auto. now rewrite Hf.
Qed.

Lemma peq_runo A (p q : prog A) : peq p q -> forall known bs, runo p known bs = runo q known bs.
Proof. intros H known bs. rewrite <- !runt_fst. now rewrite H. Qed.

Lemma peq_bind_assoc A B C (p : prog A) (f : A -> prog B) (g : B -> prog C) :
  peq (bindp (bindp p f) g) (bindp p (fun a => bindp (f a) g)).
Proof.
  intros known bs. rewrite !runt_bind.
  destruct (runt p known bs) as [[a r|r| |] evs]; auto.
  rewrite runt_bind.
  destruct (runt (f a) known r) as [[b r'|r'| |] evs']; cbn [fst snd]; auto.
  now rewrite app_assoc.
Qed.

Lemma peq_bind_ret_l A B (a : A) (f : A -> prog B) : peq (bindp (Ret a) f) (f a).
Proof. intros ? ?; reflexivity. Qed.

Lemma peq_bind_ret_r A (p : prog A) : peq (bindp p Ret) p.
Proof.
  intros known bs. rewrite runt_bind. destruct (runt p known bs) as [[a r|r| |] evs]; auto.
  cbn. now rewrite app_nil_r.
Qed.

(* Laws of repetition, each for a repetition followed by any continuation f: the form in which a
   repetition stands inside a decoder, and in which the laws apply to one another without
   reassociating binds. *)
Lemma rep_nat_S_bind A B (c : prog A) n (f : list A -> prog B) :
  peq (bindp (rep_nat (S n) c) f) (a <- c ;; l <- rep_nat n c ;; f (a :: l)).
Proof.
  cbn [rep_nat]. eapply peq_trans; [apply peq_bind_assoc|].
  apply peq_bind; [apply peq_refl|]. intros a. apply peq_bind_assoc.
Qed.

Lemma rep_nat_add A B (c : prog A) (n1 n2 : nat) : forall f : list A -> prog B,
  peq (bindp (rep_nat (n1 + n2) c) f) (l1 <- rep_nat n1 c ;; l2 <- rep_nat n2 c ;; f (l1 ++ l2)).
Proof.
  induction n1 as [|n1 IH]; intros f; [apply peq_refl|]. cbn [Nat.add].
  eapply peq_trans; [apply rep_nat_S_bind|]. eapply peq_trans; [|apply peq_sym, rep_nat_S_bind].
  apply peq_bind; [apply peq_refl|]. intros a. apply IH.
Qed.

Lemma rep_nat_mul A B (c : prog A) (q m : nat) : forall f : list A -> prog B,
  peq (l <- rep_nat q (rep_nat m c) ;; f (concat l)) (bindp (rep_nat (q * m) c) f).
Proof.
  induction q as [|q IH]; intros f; [apply peq_refl|]. cbn [Nat.mul].
  eapply peq_trans; [apply rep_nat_S_bind|]. eapply peq_trans; [|apply peq_sym, rep_nat_add].
  apply peq_bind; [apply peq_refl|]. intros l1. exact (IH (fun l2 => f (l1 ++ l2))).
Qed.

(* q * m + r repetitions taken as q groups of m and one of r *)
Lemma rep_nat_groups A (c : prog A) (q m r : nat) :
  peq (rep_nat (q * m + r) c) (l <- rep_nat q (rep_nat m c) ;; l2 <- rep_nat r c ;; Ret (concat l ++ l2)).
Proof.
  eapply peq_trans; [apply peq_sym, peq_bind_ret_r|]. eapply peq_trans; [apply rep_nat_add|].
  apply peq_sym. exact (rep_nat_mul _ _ c q m (fun l1 => l2 <- rep_nat r c ;; Ret (l1 ++ l2))).
Qed.

(* the doubling step of the binary repetition *)
Lemma rep_nat_double A B (c : prog A) (r : prog (list A)) n (f : list A -> prog B) :
  peq r (rep_nat n c) -> peq (l1 <- r ;; l2 <- r ;; f (l1 ++ l2)) (bindp (rep_nat (n + n) c) f).
Proof.
  intros H. eapply peq_trans; [|apply peq_sym, rep_nat_add].
  apply peq_bind; [exact H|]. intros l1. apply peq_bind; [exact H|]. intros l2. apply peq_refl.
Qed.

Lemma rep_pos_nat A (c : prog A) (p : positive) : peq (rep_pos p c) (rep_nat (Pos.to_nat p) c).
Proof.
  induction p as [q IH|q IH|]; cbn [rep_pos].
  - replace (Pos.to_nat q~1) with (S (Pos.to_nat q + Pos.to_nat q)) by lia. cbn [rep_nat].
    apply peq_bind; [apply peq_refl|]. intros a. exact (rep_nat_double _ _ c _ _ (fun l => Ret (a :: l)) IH).
  - replace (Pos.to_nat q~0) with (Pos.to_nat q + Pos.to_nat q)%nat by lia.
    eapply peq_trans; [|apply peq_bind_ret_r]. apply rep_nat_double, IH.
  - apply peq_refl.
Qed.

Theorem rep_rep_nat A (c : prog A) (n : N) : peq (rep n c) (rep_nat (N.to_nat n) c).
Proof.
  destruct n as [|p]; [apply peq_refl|apply rep_pos_nat].
Qed.

Lemma runo_rep_read_byte known : forall n bs,
  runo (rep_nat n read_byte) known bs =
  match take n bs with
  | Some (b, r) => OOk b r
  | None => OErr (skipn (length bs) bs)
  end.
Proof.
  induction n as [|n IH]; intros bs; cbn [rep_nat].
  - unfold take. cbn. reflexivity.
  - rewrite runo_bind. cbn [read_byte runo]. destruct bs as [|b r0].
    + unfold take; cbn. reflexivity.
    + rewrite runo_bind, IH. unfold take. cbn [length Nat.leb firstn skipn].
      destruct (n <=? length r0)%nat; cbn; reflexivity.
Qed.

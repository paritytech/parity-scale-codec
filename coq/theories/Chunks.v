(* Chunked reading = one read (the bulk fast path), and chunked element decoding =
   plain repetition (decode_vec_chunked): for every count, every chunk size. *)
Require Import Scale.Bytes Scale.Prog Scale.ProgFacts Scale.ProgMore Scale.TraceEq.

Definition rd (n : N) (bs : list byte) : out (list byte) :=
  if avail n bs then OOk (firstn (N.to_nat n) bs) (skipn (N.to_nat n) bs) else OErr [].

Lemma runo_read n known bs : oview (runo (read n) known bs) = rd n bs.
Proof. unfold rd. cbn [read runo]. destruct (avail n bs); reflexivity. Qed.

Lemma rt_read_bind A n a (f : list byte -> prog A) known rest : length a = N.to_nat n ->
  runo (x <- read n ;; f x) known (a ++ rest) = runo (f a) known rest.
Proof. intros Hl. rewrite runo_read_bind, take_app by exact Hl. reflexivity. Qed.
Lemma rt_read n a known rest : length a = N.to_nat n -> runo (read n) known (a ++ rest) = OOk a rest.
Proof. exact (rt_read_bind _ n a Ret known rest). Qed.
Lemma rd_app n a rest : length a = N.to_nat n -> rd n (a ++ rest) = OOk a rest.
Proof. intros Hl. now rewrite <- (runo_read n true), rt_read. Qed.

Lemma firstn_plus {A} (a b : nat) (l : list A) : firstn (a + b) l = firstn a l ++ firstn b (skipn a l).
Proof.
  revert l; induction a as [|a IH]; intros l; [reflexivity|].
  destruct l as [|x l]; cbn [Nat.add firstn skipn app]; [now rewrite firstn_nil|]. now rewrite IH.
Qed.

Lemma avail_plus a b bs : avail (a + b) bs = avail a bs && avail b (skipn (N.to_nat a) bs).
Proof.
  rewrite !avail_spec, skipn_length.
  destruct (N.leb_spec (a + b) (N.of_nat (length bs))); destruct (N.leb_spec a (N.of_nat (length bs)));
    destruct (N.leb_spec b (N.of_nat (length bs - N.to_nat a))); cbn [andb]; try reflexivity; lia.
Qed.

Lemma rd_short n bs : avail n bs = false -> rd n bs = OErr [].
Proof. intros H. unfold rd. now rewrite H. Qed.
Lemma rd_0 bs : rd 0 bs = OOk [] bs.
Proof. unfold rd. now rewrite avail_0. Qed.

(* as far as the outcome goes: a read of a bytes and then one of b bytes is one read of a + b bytes *)
Lemma read_plus {p q : prog (list byte)} {a b : N} {known} :
  (forall bs, oview (runo p known bs) = rd a bs) -> (forall bs, oview (runo q known bs) = rd b bs) ->
  forall bs, oview (runo (x <- p ;; y <- q ;; Ret (x ++ y)) known bs) = rd (a + b) bs.
Proof.
  intros Hp Hq bs. transitivity (oview (runo (x <- read a ;; y <- read b ;; Ret (x ++ y)) known bs)).
  - (* up to oview, p and q are the two reads *)
    apply oview_bind; [now rewrite Hp, runo_read|]. intros x r. apply oview_bind; [now rewrite Hq, runo_read|reflexivity].
  - cbn [read bindp runo]. unfold rd. rewrite avail_plus.
    destruct (avail a bs); [|reflexivity]. destruct (avail b (skipn (N.to_nat a) bs)); [|reflexivity].
    cbn [andb oview]. now rewrite N2Nat.inj_add, firstn_plus, skipn_skipn'.
Qed.

Lemma rep_read_concat (c : prog (list byte)) (m : N) known :
  (forall bs, oview (runo c known bs) = rd m bs) ->
  forall q bs,
    oview (runo (l <- rep_nat q c ;; Ret (concat l)) known bs) = rd (N.of_nat q * m) bs.
Proof.
  intros Hc. induction q as [|q IH]; intros bs; [symmetry; apply rd_0|].
  replace (N.of_nat (S q) * m) with (m + N.of_nat q * m) by lia. rewrite <- (read_plus Hc IH bs).
  cbn [rep_nat]. rewrite !runo_bind. destruct (runo c known bs) as [a r|r| |]; try reflexivity.
  rewrite !runo_bind. destruct (runo (rep_nat q c) known r); reflexivity.
Qed.

(* the two-stage loop of read_vec_from_u8s / decode_vec_chunked on bytes: the full chunks are one
   read, the remainder (none when r = 0) is another *)
Theorem chunked_read_is_one_read (c : N -> prog (list byte)) (w : N) known (cl n : N) :
  (forall k bs, oview (runo (c k) known bs) = rd (k * w) bs) ->
  forall bs,
    oview (runo (two_stage cl n c) known bs) = rd (n * w) bs.
Proof.
  intros Hc bs. rewrite two_stage_rep.
  pose proof (N.div_mod' n cl) as Hdm. set (q := n / cl) in *. set (r := n mod cl) in *.
  assert (Hfull: forall bs0, oview (runo (l <- rep q (c cl) ;; Ret (concat l)) known bs0) = rd (q * (cl * w)) bs0).
  { intros bs0. transitivity (rd (N.of_nat (N.to_nat q) * (cl * w)) bs0); [|now rewrite N2Nat.id].
    rewrite <- (rep_read_concat _ _ known (Hc cl)). now rewrite !runo_bind, runo_rep. }
  assert (Hlast: forall bs0, oview (runo (if r =? 0 then Ret [] else c r) known bs0) = rd (r * w) bs0).
  { intros bs0. destruct (N.eqb_spec r 0) as [E|E]; [|apply Hc]. rewrite E. symmetry. apply rd_0. }
  replace (n * w) with (q * (cl * w) + r * w) by (rewrite Hdm; ring).
  rewrite <- (read_plus Hfull Hlast bs), !runo_bind.
  destruct (runo (rep q (c cl)) known bs) as [l rest|rest| |]; try reflexivity.
  cbn [runo]. destruct (r =? 0); cbn [bindp runo]; now rewrite ?app_nil_r.
Qed.

Definition oeq {A} (p q : prog A) : Prop := forall known bs, runo p known bs = runo q known bs.

(* outcome equivalence is [req] with every two traces related *)
Lemma tcong_top : tcong (fun _ _ _ => True).
Proof. split; auto. Qed.
Lemma oeq_req A (p q : prog A) : oeq p q <-> req (fun _ _ _ => True) p q.
Proof.
  split; intros H known bs.
  - rewrite !runt_fst. split; [apply H|exact I].
  - rewrite <- !runt_fst. apply H.
Qed.

Lemma oeq_emit A h (p : prog A) : oeq (emit h ;;; p) p.
Proof. intros ? ?; reflexivity. Qed.

Theorem chunked_is_rep A (c : prog A) (pre : N -> prog unit) (cl n : N) :
  (forall k B (p : prog B), oeq (pre k ;;; p) p) ->
  oeq (two_stage cl n (fun k => pre k ;;; rep k c)) (rep n c).
Proof.
  intros Hpre. apply oeq_req, (chunked_is_rep_gen _ tcong_top). intros k B p. apply oeq_req, Hpre.
Qed.

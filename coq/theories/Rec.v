(* Recursive user types and the stack-safety clause of C11.
   A recursive enum (the shape derive(Decode) emits a decoder for): an index byte, then the
   variant's fields in order; a field is an ordinary universe type or a recursive occurrence held
   by Box<Self>, Option<Box<Self>> or Vec<Self>.  The decoder recurses natively, so the model takes
   a recursion budget F (the frames the native stack can hold) and answers NoFuel when it is
   exhausted - the model's rendering of a stack overflow.
   Theorems: decode traces are well nested; running out of budget F means the trace nests at least
   F levels deep; hence a depth-limited decode with limit L < F never overflows, whatever the
   input, and its answer does not depend on the budget. *)
Require Import Scale.Bytes Scale.Prog Scale.ProgFacts Scale.ProgMore Scale.Monitors Scale.CompactImpl Scale.CompactTheorems
  Scale.Codec Scale.CodecDec Scale.Depth.

Inductive rfield := FTy (t : ty) | FBox (sz : N) | FOptBox (sz : N) | FVec (sz : N).
Definition rdef := list (N * list rfield).

Definition boxed (sz : N) (self : prog val) : prog val :=
  emit HDescend ;;; emit (HAlloc sz) ;;; emit (HReal sz) ;;; v <- self ;; emit HAscend ;;; Ret v.

Definition rfield_dec (self : prog val) (f : rfield) : prog val :=
  match f with
  | FTy t => dec t
  | FBox sz => boxed sz self
  | FOptBox sz =>
      b <- read_byte ;;
      (match Byte.to_N b with
       | 0 => Ret VNone
       | 1 => v <- boxed sz self ;; Ret (VSome v)
       | _ => Fail
       end)
  | FVec sz =>
      n <- dec_compact 4 ;;
      emit HDescend ;;; l <- chunked_items sz n self ;; emit HAscend ;;; Ret (VSeq l)
  end.

Fixpoint rfields (self : prog val) (fs : list rfield) : prog val :=
  match fs with
  | [] => Ret VUnit
  | f :: r => x <- rfield_dec self f ;; y <- rfields self r ;; Ret (VPair x y)
  end.

Fixpoint rvariants (self : prog val) (vs : rdef) (b : N) (k : nat) : prog val :=
  match vs with
  | [] => Fail
  | (idx, fs) :: r =>
      if b =? idx mod 256 then (v <- rfields self fs ;; Ret (VVar k v)) else rvariants self r b (S k)
  end.

Fixpoint rdec (fuel : nat) (d : rdef) : prog val :=
  match fuel with
  | O => NoFuel
  | S f => b <- read_byte ;; rvariants (rdec f d) d (Byte.to_N b) 0
  end.

Definition wf_rfield (f : rfield) : bool :=
  match f with FTy t => wf_ty t | FBox _ | FOptBox _ => true | FVec sz => sz <=? max_prealloc end.
Definition wf_rdef (d : rdef) : bool := forallb (fun v => forallb wf_rfield (snd v)) d.

(* [rvariants self d b k] is built from [self] by the blocks of CodecDec.Built, a descend/ascend
   bracket around every recursive occurrence, and decoders of the universe.  So a relation R0
   between two choices of self becomes R between the two decoders, given the closure properties;
   R0 and R differ where the bracket shifts an index (one more level of nesting).  Panic-freedom,
   well-nestedness and "more budget extends the trace" below are instances. *)
Section Lift.
  Variables R0 R : forall A, prog A -> prog A -> Prop.
  Variable okf : rfield -> bool.    (* the fields whose universe decoders R is known to hold of *)
  Hypotheses
    (R0_ret : forall A (a : A), R0 A (Ret a) (Ret a))
    (R0_bind : forall A B (p q : prog A) (f g : A -> prog B),
        R0 A p q -> (forall a, R0 B (f a) (g a)) -> R0 B (bindp p f) (bindp q g))
    (R0_alloc : forall A n (p q : prog A), R0 A p q -> R0 A (emit (HAlloc n) ;;; p) (emit (HAlloc n) ;;; q))
    (R0_real : forall A n (p q : prog A), R0 A p q -> R0 A (emit (HReal n) ;;; p) (emit (HReal n) ;;; q))
    (R_nest : forall A B (p q : prog A) (g : A -> B), R0 A p q ->
        R B (nest p g) (nest q g))
    (R_ret : forall A (a : A), R A (Ret a) (Ret a))
    (R_fail : forall A, R A Fail Fail)
    (R_bind : forall A B (p q : prog A) (f g : A -> prog B),
        R A p q -> (forall a, R B (f a) (g a)) -> R B (bindp p f) (bindp q g))
    (R_read_byte : R _ read_byte read_byte)
    (R_count : R _ (dec_compact 4) (dec_compact 4))
    (R_dec : forall t, okf (FTy t) = true -> R _ (dec t) (dec t)).
  Variables s s' : prog val.
  Hypothesis Hs : R0 _ s s'.

  Lemma lift_boxed sz : R _ (boxed sz s) (boxed sz s').
  Proof. apply (R_nest _ _ (emit (HAlloc sz) ;;; emit (HReal sz) ;;; s) (emit (HAlloc sz) ;;; emit (HReal sz) ;;; s') (fun v => v)), R0_alloc, R0_real, Hs. Qed.

  Lemma lift_rfield f : okf f = true -> R _ (rfield_dec s f) (rfield_dec s' f).
  Proof.
    destruct f as [t|sz|sz|sz]; cbn [rfield_dec]; intros Hw.
    - now apply R_dec.
    - apply lift_boxed.
    - apply R_bind; [apply R_read_byte|]. intros b.
      destruct (Byte.to_N b) as [|[p|p|]]; try apply R_fail; [apply R_ret|].
      apply R_bind; [apply lift_boxed|intros; apply R_ret].
    - apply R_bind; [apply R_count|]. intros n.
      apply (R_nest _ _ (chunked_items sz n s) (chunked_items sz n s') VSeq), (built_chunked R0 R0_ret R0_bind R0_alloc R0_real), Hs.
  Qed.

  Lemma lift_rfields fs : forallb okf fs = true -> R _ (rfields s fs) (rfields s' fs).
  Proof.
    induction fs as [|f r IH]; cbn [rfields forallb]; intros Hw; [apply R_ret|]. apply andb_prop in Hw as [Hf Hr].
    apply R_bind; [now apply lift_rfield|]. intros x. apply R_bind; [now apply IH|intros; apply R_ret].
  Qed.

  Lemma lift_rvariants vs : forallb (fun v => forallb okf (snd v)) vs = true ->
    forall b k, R _ (rvariants s vs b k) (rvariants s' vs b k).
  Proof.
    induction vs as [|[idx fs] r IH]; intros Hw b k; cbn [rvariants]; [apply R_fail|].
    cbn [forallb snd] in Hw. apply andb_prop in Hw as [Hf Hr].
    destruct (_ =? _); [|now apply IH]. apply R_bind; [now apply lift_rfields|intros; apply R_ret].
  Qed.
End Lift.

Definition bok {A} (p : prog A) : Prop :=
  forall known bs v r evs, runt p known bs = (OOk v r, evs) -> forall d, end_depth d evs = d.

Lemma bok_silent A (p : prog A) : silent is_depth p -> bok p.
Proof.
  intros H known bs v r evs E d. rewrite <- end_depth_dpi.
  pose proof (silent_dtr _ p known bs H) as Hd. unfold dtr in Hd. rewrite E in Hd. cbn [snd] in Hd. now rewrite Hd.
Qed.
Lemma bok_bind A B (p : prog A) (f : A -> prog B) : bok p -> (forall a, bok (f a)) -> bok (bindp p f).
Proof.
  intros Hp Hf known bs v r evs E d. apply runt_bind_inv in E as (a & r1 & e1 & e2 & Ep & Ef & ->).
  rewrite end_depth_app, (Hp known bs a r1 e1 Ep d). apply (Hf a known r1 v r e2 Ef).
Qed.
Lemma bok_ret A (a : A) : bok (Ret a).
Proof. intros known bs v r evs E d. cbn in E. injection E as _ _ <-. reflexivity. Qed.
Lemma bok_fail A : bok (@Fail A).
Proof. intros known bs v r evs E. discriminate. Qed.
Lemma bok_emit_invisible A h (p : prog A) : is_depth (EHook h) = false -> bok p -> bok (emit h ;;; p).
Proof.
  intros Hh Hp known bs v r evs E d. apply runt_emit_inv in E as (e & Ep & ->).
  destruct h; try discriminate; exact (Hp known bs v r e Ep d).
Qed.
Lemma bok_nest A B (p : prog A) (g : A -> B) : bok p -> bok (nest p g).
Proof.
  intros Hp known bs v r evs E d. rewrite runt_nest in E.
  destruct (runt p known bs) as [[a r1|r1| |] e1] eqn:Ep; try discriminate. injection E as _ _ <-.
  cbn [end_depth]. rewrite end_depth_app, (Hp known bs a r1 e1 Ep (d + 1)). cbn [end_depth]. lia.
Qed.
Lemma bok_nodepth A (p : prog A) : nodepth p -> bok p.
Proof. intros H. now apply bok_silent, nodepth_silent. Qed.
Lemma bok_peq A (p q : prog A) : peq p q -> bok q -> bok p.
Proof. intros H Hq known bs v r evs E d. rewrite (H known bs) in E. eapply Hq; eauto. Qed.
Lemma bok_rep A (c : prog A) n : bok c -> bok (rep n c).
Proof. apply (built_rep (fun A p _ => bok p)); auto using bok_ret, bok_bind. Qed.
Lemma bok_node sz c : bok c -> bok (node sz c).
Proof. apply (built_node (fun A p _ => bok p)); intros; auto using bok_ret, bok_bind; now apply bok_emit_invisible. Qed.

Lemma bok_chunked sz n (c : prog val) : bok c -> bok (chunked_items sz n c).
Proof. apply (built_chunked (fun A p _ => bok p)); intros; auto using bok_ret, bok_bind; now apply bok_emit_invisible. Qed.

(* every decoder of the universe is well nested on success, on every input *)
Theorem dec_bok_mut :
  (forall t, bok (dec t)) /\ (forall vs b k, bok (dec_vars vs b k)).
Proof.
  enough (H: (forall t, True -> bok (dec t)) /\ (forall vs, True -> forall b k, bok (dec_vars vs b k))) by (split; intros; now apply H).
  apply built_dec with (R := fun A p _ => bok p) (strict := false); intros;
    auto using bok_ret, bok_fail, bok_bind, bok_nest; try (now apply bok_emit_invisible); apply bok_silent.
  (* what is left reads and never descends *)
  - (* read_byte *) silence.
  - (* read *) silence.
  - (* compact *) apply silent_dec_compact.
  - (* bulk *) apply silent_bulk.
  - (* bits *) cbn [dec]. apply silent_bind; [apply silent_dec_compact|]. intros bits.
    destruct (_ <? _); [exact I|]. apply silent_bind; [apply silent_bulk|]. intros bb. cbv zeta. destruct (_ <? _); exact I.
Qed.
Definition dec_bok := proj1 dec_bok_mut.

Definition nonf {A} (p : prog A) : Prop := forall known bs, fst (runt p known bs) <> ONoFuel.
Definition deep {A} (F : N) (p : prog A) : Prop :=
  forall known bs evs, runt p known bs = (ONoFuel, evs) -> forall d, d + F <= max_depth d evs.

Lemma nonf_okP A (Q : A -> Prop) (p : prog A) : okP Q p -> nonf p.
Proof. intros H known bs. rewrite runt_fst. apply (okP_no_panic H). Qed.
Lemma deep_nonf A F (p : prog A) : nonf p -> deep F p.
Proof. intros H known bs evs E. exfalso. apply (H known bs). now rewrite E. Qed.
Lemma deep_weaken A F F' (p : prog A) : F' <= F -> deep F p -> deep F' p.
Proof. intros HF H known bs evs E d. specialize (H known bs evs E d). lia. Qed.
Lemma deep_peq A F (p q : prog A) : peq p q -> deep F q -> deep F p.
Proof. intros H Hq known bs evs E d. rewrite (H known bs) in E. eapply Hq; eauto. Qed.
Lemma nonf_dec t : wf_ty t = true -> nonf (dec t).
Proof. intros H. apply (nonf_okP _ T). now apply (proj1 dec_total_mut). Qed.
Lemma nonf_dec_compact4 : nonf (dec_compact 4).
Proof. apply (nonf_okP _ T), okP_dec_compact, okwidth4. Qed.

(* well nested on success, and at least F levels deep when the budget runs out: the pair is what
   composes (a later overflow is measured from where a well-nested prefix left the depth) *)
Definition nested (F : N) {A} (p : prog A) : Prop := bok p /\ deep F p.

Lemma nested_nonf F A (p : prog A) : bok p -> nonf p -> nested F p.
Proof. intros Hb Hn. split; [exact Hb|now apply deep_nonf]. Qed.
Lemma nested_ret F A (a : A) : nested F (Ret a).
Proof. split; [apply bok_ret|]. intros known bs evs E. discriminate. Qed.
Lemma nested_fail F A : nested F (@Fail A).
Proof. split; [apply bok_fail|]. intros known bs evs E. discriminate. Qed.
Lemma nested_bind F A B (p : prog A) (f : A -> prog B) : nested F p -> (forall a, nested F (f a)) -> nested F (bindp p f).
Proof.
  intros [Hb Hp] Hf. split; [apply bok_bind; [exact Hb|apply Hf]|]. intros known bs evs E d. rewrite runt_bind in E.
  destruct (runt p known bs) as [[a r1|r1| |] e1] eqn:Ep; try discriminate.
  - destruct (runt (f a) known r1) as [o2 e2] eqn:Ef. cbn [fst snd] in E. injection E as -> <-.
    rewrite max_depth_app, (Hb known bs a r1 e1 Ep d). pose proof (proj2 (Hf a) known r1 e2 Ef d). lia.
  - injection E as <-. apply (Hp known bs e1 Ep d).
Qed.
Lemma nested_emit_invisible F A h (p : prog A) : is_depth (EHook h) = false -> nested F p -> nested F (emit h ;;; p).
Proof.
  intros Hh [Hb Hp]. split; [now apply bok_emit_invisible|]. intros known bs evs E d.
  apply runt_emit_inv in E as (e & Ep & ->).
  destruct h; try discriminate; exact (Hp known bs e Ep d).
Qed.
Lemma nested_nest F A B (p : prog A) (g : A -> B) : nested F p -> nested (F + 1) (nest p g).
Proof.
  intros [Hb Hp]. split; [now apply bok_nest|]. intros known bs evs E d. rewrite runt_nest in E.
  destruct (runt p known bs) as [[a r1|r1| |] e1] eqn:Ep; try discriminate.
  injection E as <-. cbn [max_depth]. specialize (Hp known bs e1 Ep (d + 1)). lia.
Qed.

Lemma nonf_read_byte : nonf read_byte.
Proof. intros known bs. cbn [read_byte runt]. destruct bs; cbn; discriminate. Qed.

Theorem rdec_nested d : wf_rdef d = true -> forall F, bok (rdec F d) /\ deep (N.of_nat F) (rdec F d).
Proof.
  intros Hw. induction F as [|f IH]; cbn [rdec].
  - split.
    + intros known bs v r evs E. discriminate.
    + intros known bs evs E dd. cbn in E. injection E as <-. cbn [max_depth]. lia.
  - rewrite Nat2N.inj_succ, <- N.add_1_r. fold (nested (N.of_nat f + 1) (b <- read_byte ;; rvariants (rdec f d) d (Byte.to_N b) 0)).
    assert (Hrb: nested (N.of_nat f + 1) read_byte) by (apply nested_nonf; [apply bok_silent; silence|apply nonf_read_byte]).
    apply nested_bind; [exact Hrb|]. intros b.
    apply lift_rvariants with (R0 := fun A p _ => nested (N.of_nat f) p) (R := fun A p _ => nested (N.of_nat f + 1) p) (okf := wf_rfield) (s' := rdec f d);
      intros; auto using nested_ret, nested_fail, nested_bind, nested_nest; try (now apply nested_emit_invisible).
    (* the count and the fields of universe type never run out of budget *)
    + (* count *) apply nested_nonf; [apply bok_silent, silent_dec_compact|apply nonf_dec_compact4].
    + (* dec t *) apply nested_nonf; [apply dec_bok|now apply nonf_dec].
Qed.

(* more budget extends the trace *)
Definition fext {A} (p q : prog A) : Prop :=
  forall known bs,
    match runt p known bs with
    | (ONoFuel, evs) => exists s, snd (runt q known bs) = evs ++ s
    | r => runt q known bs = r
    end.

Lemma fext_refl A (p : prog A) : fext p p.
Proof. intros known bs. destruct (runt p known bs) as [[a r|r| |] evs]; auto. exists []. cbn [snd]. now rewrite app_nil_r. Qed.
Lemma fext_bind A B (p q : prog A) (f g : A -> prog B) :
  fext p q -> (forall a, fext (f a) (g a)) -> fext (bindp p f) (bindp q g).
Proof.
  intros Hp Hf known bs. rewrite !runt_bind. specialize (Hp known bs).
  destruct (runt p known bs) as [[a r1|r1| |] e1].
  - rewrite Hp. specialize (Hf a known r1).
    destruct (runt (f a) known r1) as [[b r2|r2| |] e2]; cbn [fst snd].
    + now rewrite Hf.
    + now rewrite Hf.
    + now rewrite Hf.
    + destruct Hf as [s Hs]. exists s. cbn [snd]. now rewrite Hs, app_assoc.
  - now rewrite Hp.
  - now rewrite Hp.
  - destruct Hp as [s Hs]. destruct (runt q known bs) as [[a r1|r1| |] e1']; cbn [snd] in Hs; subst e1'.
    + cbn [snd]. exists (s ++ snd (runt (g a) known r1)). now rewrite app_assoc.
    + exists s. reflexivity.
    + exists s. reflexivity.
    + exists s. reflexivity.
Qed.
Lemma fext_peq A (p p' q q' : prog A) : peq p p' -> peq q q' -> fext p' q' -> fext p q.
Proof. intros H1 H2 H known bs. rewrite (H1 known bs), (H2 known bs). apply H. Qed.
Lemma fext_emit A h (p q : prog A) : fext p q -> fext (emit h ;;; p) (emit h ;;; q).
Proof. intros H. apply fext_bind; [apply fext_refl|]. intros _. exact H. Qed.
Lemma fext_rep A (c c' : prog A) n : fext c c' -> fext (rep n c) (rep n c').
Proof. apply (built_rep (@fext)); auto using fext_refl, fext_bind. Qed.
Lemma fext_chunked sz n (c c' : prog val) : fext c c' -> fext (chunked_items sz n c) (chunked_items sz n c').
Proof. apply (built_chunked (@fext)); auto using fext_refl, fext_bind, fext_emit. Qed.
Theorem rdec_budget_extends d : forall F F', (F <= F')%nat -> fext (rdec F d) (rdec F' d).
Proof.
  induction F as [|f IH]; intros F' HF.
  - intros known bs. cbn [rdec runt]. eexists. reflexivity.
  - destruct F' as [|f']; [lia|]. cbn [rdec]. apply fext_bind; [apply fext_refl|]. intros b.
    apply lift_rvariants with (R0 := @fext) (R := @fext) (okf := fun _ => true); intros; unfold nest; auto using fext_refl, fext_bind; try (apply IH; lia).
    + (* every field is covered *) apply forallb_forall. intros v _. now apply forallb_forall.
Qed.

Lemma feed_reject_app (m : monitor) evs x : forall s s', feed m s evs = (s', false) -> feed m s (evs ++ x) = (s', false).
Proof. intros s s' H. now rewrite feed_app, H. Qed.

(* a recursion budget above the depth limit is never exhausted, whatever the input *)
Theorem rec_depth_limit_never_overflows d F L known bs :
  wf_rdef d = true -> L < N.of_nat F -> run (depthmon L) (rdec F d) known bs 0 <> RNoFuel.
Proof.
  intros Hw HL. pose proof (depth_limit_exact _ (rdec F d) known bs L) as H.
  destruct (rdec_nested d Hw F) as [_ Hd]. specialize (Hd known bs).
  destruct (runt (rdec F d) known bs) as [o evs].
  destruct (N.leb_spec (max_depth 0 evs) L) as [Hm|Hm]; destruct H as [s ->]; [|discriminate].
  destruct o; cbn [lift_out]; try discriminate.
  specialize (Hd evs eq_refl 0). lia.
Qed.

(* and the answer does not depend on the budget *)
Theorem rec_depth_limit_budget_irrelevant d F F' L known bs :
  wf_rdef d = true -> L < N.of_nat F -> (F <= F')%nat ->
  run (depthmon L) (rdec F' d) known bs 0 = run (depthmon L) (rdec F d) known bs 0.
Proof.
  intros Hw HL HF. rewrite !run_runt.
  pose proof (rdec_budget_extends d F F' HF known bs) as Hx.
  destruct (rdec_nested d Hw F) as [_ Hd]. specialize (Hd known bs).
  destruct (runt (rdec F d) known bs) as [[a r|r| |] evs]; try (now rewrite Hx).
  destruct Hx as [s Hs]. destruct (runt (rdec F' d) known bs) as [o' evs']. cbn [snd] in Hs. subst evs'.
  specialize (Hd evs eq_refl 0).
  pose proof (depth_feed_iff L evs 0 ltac:(lia)) as Hf.
  destruct (feed (depthmon L) 0 evs) as [s1 ok] eqn:E. cbn [snd] in Hf.
  destruct (N.leb_spec (max_depth 0 evs) L); [lia|]. subst ok.
  now rewrite (feed_reject_app (depthmon L) evs s 0 s1 E).
Qed.

(* without a limit, more budget never changes an answer already obtained *)
Theorem rec_budget_monotone d F F' known bs :
  (F <= F')%nat -> runo (rdec F d) known bs <> ONoFuel -> runt (rdec F' d) known bs = runt (rdec F d) known bs.
Proof.
  intros HF Hn. pose proof (rdec_budget_extends d F F' HF known bs) as Hx. rewrite <- runt_fst in Hn.
  destruct (runt (rdec F d) known bs) as [[a r|r| |] evs]; auto. now elim Hn.
Qed.

(* the recursive decoder never panics (C03 for recursive types) *)
Definition np {A} (p : prog A) : Prop := forall known bs, runo p known bs <> OPanic.

Lemma np_okP A (Q : A -> Prop) (p : prog A) : okP Q p -> np p.
Proof. intros H known bs. apply (okP_no_panic H). Qed.
Lemma np_bind A B (p : prog A) (f : A -> prog B) : np p -> (forall a, np (f a)) -> np (bindp p f).
Proof.
  intros Hp Hf known bs. rewrite runo_bind. specialize (Hp known bs).
  destruct (runo p known bs) as [a r|r| |]; try discriminate; [apply Hf|contradiction].
Qed.
Lemma np_ret A (a : A) : np (Ret a). Proof. intros known bs. discriminate. Qed.
Lemma np_fail A : np (@Fail A). Proof. intros known bs. discriminate. Qed.
Lemma np_emit A h (p : prog A) : np p -> np (emit h ;;; p).
Proof. intros H known bs. apply H. Qed.
Lemma np_nest A B (p : prog A) (g : A -> B) : np p -> np (nest p g).
Proof.
  intros H. apply np_emit, np_bind; [exact H|]. intros v. apply np_emit, np_ret.
Qed.
Lemma np_nofuel A : np (@NoFuel A). Proof. intros known bs. discriminate. Qed.
Lemma np_rep A (c : prog A) n : np c -> np (rep n c).
Proof. apply (built_rep (fun A p _ => np p)); auto using np_ret, np_bind. Qed.
Lemma np_chunked sz n (c : prog val) : np c -> np (chunked_items sz n c).
Proof. apply (built_chunked (fun A p _ => np p)); auto using np_ret, np_bind, np_emit. Qed.
Lemma np_read_byte : np read_byte.
Proof. intros known bs. cbn [read_byte runo]. destruct bs; discriminate. Qed.

Theorem rec_never_panics d : wf_rdef d = true -> forall F known bs, runo (rdec F d) known bs <> OPanic.
Proof.
  intros Hw F. change (np (rdec F d)). induction F as [|f IH]; cbn [rdec]; [intros known bs; discriminate|].
  apply np_bind; [apply np_read_byte|]. intros b.
  apply lift_rvariants with (R0 := fun A p _ => np p) (R := fun A p _ => np p) (okf := wf_rfield) (s' := rdec f d);
    intros; cbv beta in *; auto using np_ret, np_fail, np_bind, np_emit, np_nest, np_read_byte.
  - (* count *) apply (np_okP _ T), okP_dec_compact, okwidth4.
  - (* dec t *) apply (np_okP _ T). now apply (proj1 dec_total_mut).
Qed.

(* C20: the cfg-gated code on the data path.
   - Output: without std, `impl Output for Vec<u8>` (extend_from_slice); with std,
     `impl<W: io::Write> Output for W` (write_all, which loops over short writes).
   - Error: with chain-error a description and a cause chain are kept, without it they are
     dropped.  The verdict does not depend on them. *)
Require Import Scale.Bytes.

(* a writer that accepts at most k >= 1 bytes per call; write_all loops until all is written *)
Fixpoint write_all (fuel : nat) (k : nat) (out bytes : list byte) : option (list byte) :=
  match bytes with
  | [] => Some out
  | _ => match fuel with
         | O => None
         | S f => let n := Nat.min (Nat.max k 1) (length bytes) in
                  write_all f k (out ++ firstn n bytes) (skipn n bytes)
         end
  end.

Theorem write_all_appends k : forall bytes fuel out, (length bytes <= fuel)%nat ->
  write_all fuel k out bytes = Some (out ++ bytes).
Proof.
  intros bytes fuel. revert bytes.
  induction fuel as [|f IH]; intros [|b r] out Hf; cbn [write_all].
  - now rewrite app_nil_r.
  - cbn in Hf. lia.
  - now rewrite app_nil_r.
  - rewrite IH, <- app_assoc, firstn_skipn; [reflexivity|].
    (* a call takes at least one byte *) rewrite skipn_length. cbn [length] in *. lia.
Qed.

(* the two Output implementations describe the same byte string *)
Definition output_write (std : bool) (k : nat) (out bytes : list byte) : option (list byte) :=
  if std then write_all (length bytes) k out bytes else Some (out ++ bytes).

Theorem output_cfg_independent std std' k k' out bytes :
  output_write std k out bytes = output_write std' k' out bytes.
Proof. unfold output_write. destruct std, std'; rewrite ?write_all_appends by lia; reflexivity. Qed.

(* errors: only the description differs *)
Inductive error := EPlain | EDescribed (desc : list (list byte)).
Definition mk_error (chain : bool) (desc : list (list byte)) : error :=
  if chain then EDescribed desc else EPlain.
Definition verdict {A} (r : A + error) : option A := match r with inl a => Some a | inr _ => None end.

Theorem error_cfg_independent A (a : option A) chain chain' desc desc' :
  verdict (match a with Some x => inl x | None => inr (mk_error chain desc) end) =
  verdict (match a with Some x => inl x | None => inr (mk_error chain' desc') end).
Proof. destruct a; reflexivity. Qed.

(* Recursive derived types on encodings: decoding the encoding of a value of a recursive enum (with
   a recursion budget that covers the value) returns the value and leaves what follows, nests as
   deep as the value and announces the closed form rann - the traced round trip of CodecRt.v, for
   [rdec]. *)
Require Import Scale.Bytes Scale.Eres Scale.Prog Scale.ProgFacts Scale.ProgMore Scale.Codec Scale.CodecEnc Scale.Depth
  Scale.Mem Scale.Yields Scale.CodecRt Scale.Rec.

Definition renc_field (self : val -> eres (list byte)) (f : rfield) (x : val) : eres (list byte) :=
  match f, x with
  | FTy t, _ => if wf t x then enc spec_c t x else EIll
  | FBox _, _ => self x
  | FOptBox _, VNone => EOk [x00]
  | FOptBox _, VSome y => eapp (EOk [x01]) (self y)
  | FVec _, VSeq l => eapp (enc_count spec_c (length l)) (econcat (map self l))
  | _, _ => EIll
  end.
Fixpoint renc_fields (self : val -> eres (list byte)) (fs : list rfield) (fv : val) : eres (list byte) :=
  match fs, fv with
  | [], VUnit => EOk []
  | f :: r, VPair x y => eapp (renc_field self f x) (renc_fields self r y)
  | _, _ => EIll
  end.
Fixpoint renc (F : nat) (d : rdef) (v : val) : eres (list byte) :=
  match F with
  | O => EIll
  | S f =>
      match v with
      | VVar k fv =>
          match nth_error d k with
          | Some (idx, fs) => eapp (EOk [byte_of idx]) (renc_fields (renc f d) fs fv)
          | None => EIll
          end
      | _ => EIll
      end
  end.

(* what decoding returns: universe-typed fields in canonical form *)
Definition rcanon_field (self : val -> val) (f : rfield) (x : val) : val :=
  match f, x with
  | FTy t, _ => canon t x
  | FBox _, _ => self x
  | FOptBox _, VSome y => VSome (self y)
  | FVec _, VSeq l => VSeq (map self l)
  | _, _ => x
  end.
Fixpoint rcanon_fields (self : val -> val) (fs : list rfield) (fv : val) : val :=
  match fs, fv with
  | f :: r, VPair x y => VPair (rcanon_field self f x) (rcanon_fields self r y)
  | _, _ => fv
  end.
Fixpoint rcanon (F : nat) (d : rdef) (v : val) : val :=
  match F with
  | O => v
  | S f =>
      match v with
      | VVar k fv => match nth_error d k with Some (_, fs) => VVar k (rcanon_fields (rcanon f d) fs fv) | None => v end
      | _ => v
      end
  end.

(* indices below 256 and pairwise distinct (what derive_accepts guarantees, C17) *)
Fixpoint ridx_ok (d : rdef) : bool :=
  match d with
  | [] => true
  | (i, _) :: r => (i <? 256) && negb (existsb (fun v => fst v =? i) r) && ridx_ok r
  end.

Lemma rvariants_select (self : prog val) d : ridx_ok d = true -> forall k idx fs k0,
  nth_error d k = Some (idx, fs) ->
  rvariants self d idx k0 = (v <- rfields self fs ;; Ret (VVar (k0 + k) v)).
Proof.
  induction d as [|[i fs'] r IH]; intros Hok k idx fs k0 Hn; [destruct k; discriminate|].
  cbn [ridx_ok] in Hok. apply andb_prop in Hok as [Hok Hr]. apply andb_prop in Hok as [Hlt Hnot]. apply N.ltb_lt in Hlt.
  destruct k as [|k]; cbn [nth_error] in Hn; cbn [rvariants].
  - injection Hn as -> ->. rewrite N.mod_small, N.eqb_refl, Nat.add_0_r by exact Hlt. reflexivity.
  - rewrite N.mod_small by exact Hlt.
    destruct (N.eqb_spec idx i) as [->|Hne].
    + exfalso. apply nth_error_In in Hn. apply negb_true_iff in Hnot.
      assert (existsb (fun v : N * list rfield => fst v =? i) r = true); [|congruence].
      apply existsb_exists. exists (i, fs). split; [exact Hn|cbn [fst]; apply N.eqb_refl].
    + rewrite (IH Hr k idx fs (S k0) Hn). replace (k0 + S k)%nat with (S k0 + k)%nat by lia. reflexivity.
Qed.

Lemma ridx_lt d : ridx_ok d = true -> forall k idx fs, nth_error d k = Some (idx, fs) -> idx < 256.
Proof.
  induction d as [|[i fs'] r IH]; intros Hok k idx fs Hn; [destruct k; discriminate|].
  cbn [ridx_ok] in Hok. apply andb_prop in Hok as [Hok Hr]. apply andb_prop in Hok as [Hlt _].
  destruct k; cbn [nth_error] in Hn; [injection Hn as -> _; now apply N.ltb_lt|eauto].
Qed.
Lemma wf_rdef_nth d : wf_rdef d = true -> forall k idx fs, nth_error d k = Some (idx, fs) -> forallb wf_rfield fs = true.
Proof.
  unfold wf_rdef. intros H k idx fs Hn. rewrite forallb_forall in H. apply (H (idx, fs)). eapply nth_error_In; eauto.
Qed.

(* the nesting depth and the announced total of a recursive value, as decoding it will show them *)
Definition rdepth_field (self : val -> N) (f : rfield) (x : val) : N :=
  match f, x with
  | FTy t, _ => ddepth t x
  | FBox _, _ => 1 + self x
  | FOptBox _, VSome y => 1 + self y
  | FVec _, VSeq l => 1 + maxl (map self l)
  | _, _ => 0
  end.
Fixpoint rdepth_fields (self : val -> N) (fs : list rfield) (fv : val) : N :=
  match fs, fv with
  | f :: r, VPair x y => N.max (rdepth_field self f x) (rdepth_fields self r y)
  | _, _ => 0
  end.
Fixpoint rdepth (F : nat) (d : rdef) (v : val) : N :=
  match F with
  | O => 0
  | S f =>
      match v with
      | VVar k fv => match nth_error d k with Some (_, fs) => rdepth_fields (rdepth f d) fs fv | None => 0 end
      | _ => 0
      end
  end.

Definition rann_field (self : val -> N) (f : rfield) (x : val) : N :=
  match f, x with
  | FTy t, _ => ann t x
  | FBox sz, _ => sz + self x
  | FOptBox sz, VSome y => sz + self y
  | FVec sz, VSeq l => N.of_nat (length l) * sz + suml (map self l)
  | _, _ => 0
  end.
Fixpoint rann_fields (self : val -> N) (fs : list rfield) (fv : val) : N :=
  match fs, fv with
  | f :: r, VPair x y => rann_field self f x + rann_fields self r y
  | _, _ => 0
  end.
Fixpoint rann (F : nat) (d : rdef) (v : val) : N :=
  match F with
  | O => 0
  | S f =>
      match v with
      | VVar k fv => match nth_error d k with Some (_, fs) => rann_fields (rann f d) fs fv | None => 0 end
      | _ => 0
      end
  end.

(* the items of a Vec<Self>, decoded by a c that does what self does and announces x more *)
Lemma yields_items (c : prog val) (f : val -> eres (list byte)) (g : val -> val) (dd aa : val -> N) x known :
  (forall v bs, f v = EOk bs -> forall rest, yields c known (bs ++ rest) (g v) rest (dd v) (x + aa v)) ->
  forall l bs, econcat (map f l) = EOk bs ->
  forall rest, yields (rep_nat (length l) c) known (bs ++ rest) (map g l) rest
                      (maxl (map dd l)) (N.of_nat (length l) * x + suml (map aa l)).
Proof.
  intros Hc. induction l as [|v l IH]; intros bs Hb rest; cbn [map econcat] in Hb.
  - injection Hb as <-. apply yields_ret.
  - fold (eapp (f v) (econcat (map f l))) in Hb. apply eapp_ok in Hb as (b & y & Hv & Hl & ->).
    rewrite <- app_assoc. cbn [length map].
    eapply yields_eq; [eapply yields_rep_S; [exact (Hc v b Hv (y ++ rest))|apply IH, Hl]|reflexivity|].
    cbn [suml fold_right]. fold (suml (map aa l)). lia.
Qed.

Section Fields.
  Variables (self : prog val) (senc : val -> eres (list byte)) (scanon : val -> val) (sdepth sann : val -> N).
  Hypothesis self_yields : forall x bs, senc x = EOk bs ->
    forall known rest, yields self known (bs ++ rest) (scanon x) rest (sdepth x) (sann x).

  Lemma boxed_yields sz x bs known rest : senc x = EOk bs ->
    yields (boxed sz self) known (bs ++ rest) (scanon x) rest (1 + sdepth x) (sz + sann x).
  Proof.
    intros H. apply (yields_nest _ _ (emit (HAlloc sz) ;;; emit (HReal sz) ;;; self) (fun v => v)), yields_alloc, yields_real.
    now apply self_yields.
  Qed.

  Lemma rfield_yields f x bs known rest : wf_rfield f = true -> renc_field senc f x = EOk bs ->
    yields (rfield_dec self f) known (bs ++ rest) (rcanon_field scanon f x) rest (rdepth_field sdepth f x) (rann_field sann f x).
  Proof.
    intros Hw He. destruct f as [t|sz|sz|sz]; cbn [rfield_dec renc_field rcanon_field rdepth_field rann_field wf_rfield] in *.
    - destruct (wf t x) eqn:Hx; [|discriminate]. now apply enc_yields.
    - now apply boxed_yields.
    - destruct x; try discriminate.
      + injection He as <-. apply yields_tag, yields_ret.
      + apply eapp_ok in He as (a & b & [= <-] & Hb & ->). cbn [app]. apply yields_tag. cbn [Byte.to_N].
        now apply yields_map, boxed_yields.
    - destruct x; try discriminate. apply N.leb_le in Hw.
      apply eapp_ok in He as (a & b & Ha & Hb & ->).
      unfold enc_count in Ha. destruct (N.ltb_spec u32max (N.of_nat (length l))) as [|Hn]; [discriminate|].
      injection Ha as <-. rewrite <- app_assoc.
      apply yields_count; [exact Hn|].
      apply (yields_chunked VSeq); [exact Hw|].
      apply yields_rep_of_nat, (yields_items _ senc scanon sdepth sann sz); [|exact Hb].
      intros v bs0 Hv rest0. now apply yields_alloc, self_yields.
  Qed.

  Lemma rfields_yields fs : forallb wf_rfield fs = true -> forall fv bs known rest, renc_fields senc fs fv = EOk bs ->
    yields (rfields self fs) known (bs ++ rest) (rcanon_fields scanon fs fv) rest (rdepth_fields sdepth fs fv) (rann_fields sann fs fv).
  Proof.
    induction fs as [|f r IH]; intros Hw fv bs known rest He;
      cbn [rfields renc_fields rcanon_fields rdepth_fields rann_fields forallb] in *.
    - destruct fv; try discriminate. injection He as <-. apply yields_ret.
    - apply andb_prop in Hw as [Hf Hr]. destruct fv; try discriminate.
      apply eapp_ok in He as (a & b & Ha & Hb & ->). rewrite <- app_assoc.
      eapply yields_bind; [now apply rfield_yields|]. now apply yields_map, IH.
  Qed.
End Fields.

Theorem rec_yields d : wf_rdef d = true -> ridx_ok d = true ->
  forall F v bs, renc F d v = EOk bs ->
  forall known rest, yields (rdec F d) known (bs ++ rest) (rcanon F d v) rest (rdepth F d v) (rann F d v).
Proof.
  intros Hw Hok. induction F as [|f IH]; intros v bs He known rest; cbn [renc] in He; [discriminate|].
  destruct v as [ | | | | | | | | | |k fv]; try discriminate.
  destruct (nth_error d k) as [[idx fs]|] eqn:Hn; [|discriminate].
  apply eapp_ok in He as (a & b & [= <-] & Hb & ->).
  pose proof (ridx_lt d Hok k idx fs Hn) as Hlt.
  cbn [rdec rcanon rdepth rann app]. rewrite Hn. apply yields_tag.
  rewrite to_byte_of, N.mod_small, (rvariants_select _ d Hok k idx fs 0 Hn) by exact Hlt.
  apply (yields_map (VVar k)), (rfields_yields _ (renc f d)); [exact IH|exact (wf_rdef_nth d Hw k idx fs Hn)|exact Hb].
Qed.

Theorem rec_roundtrip d : wf_rdef d = true -> ridx_ok d = true ->
  forall F v bs, renc F d v = EOk bs ->
  forall known rest, runo (rdec F d) known (bs ++ rest) = OOk (rcanon F d v) rest.
Proof. intros Hw Hok F v bs He known rest. exact (yields_runo (rec_yields d Hw Hok F v bs He known rest)). Qed.

(* more budget on the decoding side does not matter *)
Corollary rec_roundtrip_any_budget d F F' v bs known rest :
  wf_rdef d = true -> ridx_ok d = true -> (F <= F')%nat -> renc F d v = EOk bs ->
  runo (rdec F' d) known (bs ++ rest) = OOk (rcanon F d v) rest.
Proof.
  intros Hw Hok HF He. pose proof (rec_roundtrip d Hw Hok F v bs He known rest) as H.
  rewrite <- runt_fst. rewrite (rec_budget_monotone d F F' known (bs ++ rest) HF); [now rewrite runt_fst|].
  rewrite H. discriminate.
Qed.

(* depth-limited decoding of the encoding of a recursive value: the value when L covers its
   nesting, an error when it is deeper - with any recursion budget that covers the value *)
Theorem rec_depth_limit_on_encodings d F v bs known rest L :
  wf_rdef d = true -> ridx_ok d = true -> renc F d v = EOk bs ->
  if rdepth F d v <=? L
  then exists s, run (depthmon L) (rdec F d) known (bs ++ rest) 0 = ROk (rcanon F d v) rest s
  else exists s, run (depthmon L) (rdec F d) known (bs ++ rest) 0 = RErr s.
Proof. intros Hw Hok He. exact (yields_depth_limit L (rec_yields d Hw Hok F v bs He known rest)). Qed.

Theorem rec_mem_limit_on_encodings d F v bs known rest L :
  wf_rdef d = true -> ridx_ok d = true -> renc F d v = EOk bs -> rann F d v <= usize_max ->
  (rann F d v < L -> exists u, run (memmon L) (rdec F d) known (bs ++ rest) 0 = ROk (rcanon F d v) rest u) /\
  (0 < rann F d v -> L <= rann F d v -> exists u, run (memmon L) (rdec F d) known (bs ++ rest) 0 = RErr u).
Proof. intros Hw Hok He. exact (yields_mem_limit L (rec_yields d Hw Hok F v bs He known rest)). Qed.

Theorem rec_strict_prefix_fails d F v bs pre suf known :
  wf_rdef d = true -> ridx_ok d = true -> renc F d v = EOk bs ->
  bs = pre ++ suf -> suf <> [] ->
  forall F' v' r, (F <= F')%nat -> runo (rdec F' d) known pre <> OOk v' r.
Proof.
  intros Hw Hok He -> Hs F' v' r HF. apply runo_prefix_free with (suf := suf) (v := rcanon F d v); [|exact Hs].
  rewrite <- (app_nil_r (pre ++ suf)). now apply rec_roundtrip_any_budget.
Qed.

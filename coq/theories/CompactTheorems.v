(* Consequences of CompactProofs + CompactSpec: the statements of props/C04.v, and the length prefix
   (a compact u32) as the collection decoders meet it. *)
Require Import Scale.Bytes Scale.Eres Scale.Prog Scale.ProgMore Scale.CompactImpl Scale.CompactSpec Scale.CompactProofs.

Lemma okwidth_bits B : okwidth B -> 8 <= 8 * B /\ 8 * B <= 536.
Proof. unfold okwidth. lia. Qed.

Theorem compact_dec_iff B known bs v rest : okwidth B ->
  (oview (runo (dec_compact B) known bs) = OOk v rest <->
   v < 2 ^ (8 * B) /\ bs = spec_compact v ++ rest).
Proof. intros HB. rewrite dec_compact_spec, of_opt_ok by exact HB. apply sdec_iff, okwidth_bits, HB. Qed.

Theorem compact_dec_no_panic B known bs : okwidth B ->
  runo (dec_compact B) known bs <> OPanic /\ runo (dec_compact B) known bs <> ONoFuel.
Proof. intros HB. eapply of_opt_no_panic, dec_compact_spec, HB. Qed.

Theorem compact_width_compat B B' v : okwidth B -> okwidth B' ->
  v < 2 ^ (8 * B) -> v < 2 ^ (8 * B') -> enc_compact B v = enc_compact B' v.
Proof. intros. now rewrite !enc_compact_spec. Qed.

(* in the length-tagged form the byte count is minimal (no leading zero byte)
   and at least 4 *)
Theorem spec_compact_big_minimal v : 2 ^ 30 <= v ->
  (4 <= byte_len v)%nat /\ 256 ^ (N.of_nat (byte_len v) - 1) <= v < 256 ^ N.of_nat (byte_len v).
Proof. intros H. split; [now apply byte_len_big|]. apply byte_len_spec. lia. Qed.

(* uniqueness: two byte strings that decode (under any width) to the same value
   with the same remainder are equal *)
Theorem compact_unique_any B B' known known' bs1 bs2 v rest : okwidth B -> okwidth B' ->
  oview (runo (dec_compact B) known bs1) = OOk v rest ->
  oview (runo (dec_compact B') known' bs2) = OOk v rest -> bs1 = bs2.
Proof. intros HB HB' H1 H2. apply compact_dec_iff in H1 as [_ ->], H2 as [_ ->]; trivial. Qed.

Theorem compact_unique B known bs1 bs2 v rest : okwidth B ->
  oview (runo (dec_compact B) known bs1) = OOk v rest ->
  oview (runo (dec_compact B) known bs2) = OOk v rest -> bs1 = bs2.
Proof. intros HB. now apply compact_unique_any. Qed.

Theorem spec_compact_prefix_free W a b ra rb : W <= 536 -> a < 2 ^ W -> b < 2 ^ W ->
  spec_compact a ++ ra = spec_compact b ++ rb -> a = b /\ ra = rb.
Proof.
  intros HW Ha Hb H. pose proof (sdec_spec W a ra HW Ha) as E.
  rewrite H, sdec_spec in E by assumption. now injection E.
Qed.

Theorem spec_compact_inj a b ra rb : a < 2 ^ 128 -> b < 2 ^ 128 ->
  spec_compact a ++ ra = spec_compact b ++ rb -> a = b /\ ra = rb.
Proof. apply spec_compact_prefix_free. lia. Qed.

Theorem enc_compact_no_panic B v : okwidth B -> v < 2 ^ (8 * B) -> enc_compact B v <> EPanic.
Proof. intros HB Hv. rewrite enc_compact_spec by assumption. discriminate. Qed.

(* the element count of a collection: a u32 in compact form *)
Lemma okwidth4 : okwidth 4.
Proof. unfold okwidth; auto. Qed.
Lemma u32_width c : c <= u32max <-> c < 2 ^ (8 * 4).
Proof. unfold u32max. change (2 ^ (8 * 4)) with 4294967296. lia. Qed.

Lemma rt_compact B n known rest : okwidth B -> n < 2 ^ (8 * B) ->
  runo (dec_compact B) known (spec_compact n ++ rest) = OOk n rest.
Proof. intros HB Hn. apply oview_ok. apply compact_dec_iff; auto. Qed.

(* the inputs on which a count is read back: a canonical count below 2^32, then anything *)
Lemma dec_count known vec c body :
  runo (dec_compact 4) known vec = OOk c body <-> c <= u32max /\ vec = spec_compact c ++ body.
Proof.
  rewrite u32_width, <- (compact_dec_iff 4 known vec c body okwidth4). split; [now intros ->|apply oview_ok].
Qed.
Lemma rt_count n known rest : n <= u32max -> runo (dec_compact 4) known (spec_compact n ++ rest) = OOk n rest.
Proof. intros H. now apply dec_count. Qed.

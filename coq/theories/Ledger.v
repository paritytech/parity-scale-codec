(* C10: a resource-ledger model of partial decodes.
   Shapes: an element with a destructor; in-place arrays ([T;N]::decode_into with its State
   drop guard); growing vectors (decode_vec_chunked pushing into a Vec that is dropped on the
   error path); boxes (Box::decode_wrapped: allocate, decode in place, free on failure);
   pairs (tuples, derived structs: fields already built are dropped when a later one fails).
   The script makes the [fail]-th element decoder fail (error or panic - both unwind).
   The ledger records construction/drop of elements and allocation/free of heap blocks. *)
Require Import Scale.Bytes.
Local Open Scope nat_scope.

Inductive lev := LNew (i : nat) | LDrop (i : nat) | LAlloc (b : nat) | LFree (b : nat).

Inductive shape :=
| SUnit | SEl
| SArr (n : nat) (s : shape) | SVec (n : nat) (s : shape)
| SBox (s : shape) | SPair (a b : shape).

Record st := mkSt { nid : nat; nblk : nat; pos : nat; evs : list lev }.
Definition own : Type := (list nat * list nat)%type.       (* element ids, heap blocks *)
Definition release (o : own) : list lev := map LDrop (fst o) ++ map LFree (snd o).
Definition emitl (l : list lev) (s : st) : st := mkSt (nid s) (nblk s) (pos s) (evs s ++ l).
Definition oapp (a b : own) : own := (fst a ++ fst b, snd a ++ snd b).

Fixpoint dec (fail : nat) (s : shape) (σ : st) {struct s} : option own * st :=
  match s with
  | SUnit => (Some ([], []), σ)
  | SEl =>
      if pos σ =? fail then (None, mkSt (nid σ) (nblk σ) (S (pos σ)) (evs σ))
      else (Some ([nid σ], []), mkSt (S (nid σ)) (nblk σ) (S (pos σ)) (evs σ ++ [LNew (nid σ)]))
  | SBox s' =>
      let b := nblk σ in
      match dec fail s' (mkSt (nid σ) (S b) (pos σ) (evs σ ++ [LAlloc b])) with
      | (Some o, σ2) => (Some (fst o, snd o ++ [b]), σ2)
      | (None, σ2) => (None, emitl [LFree b] σ2)          (* Box<MaybeUninit<T>> dropped: memory freed *)
      end
  | SPair a b =>
      match dec fail a σ with
      | (None, σ1) => (None, σ1)
      | (Some oa, σ1) =>
          match dec fail b σ1 with
          | (Some ob, σ2) => (Some (oapp oa ob), σ2)
          | (None, σ2) => (None, emitl (release oa) σ2)   (* the field already built is dropped *)
          end
      end
  | SArr n s' =>
      (* while state.count < N { T::decode_into(..)?; count += 1 }  with the State guard *)
      (fix loop (k : nat) (σ : st) (acc : own) {struct k} : option own * st :=
         match k with
         | O => (Some acc, σ)                              (* mem::forget(state) *)
         | S k' => match dec fail s' σ with
                   | (Some o, σ1) => loop k' σ1 (oapp acc o)
                   | (None, σ1) => (None, emitl (release acc) σ1)   (* State::drop *)
                   end
         end) n σ ([], [])
  | SVec n s' =>
      (* the vector's buffer, then pushes; on the error path the Vec is dropped *)
      let b := nblk σ in
      match (fix loop (k : nat) (σ : st) (acc : own) {struct k} : option own * st :=
               match k with
               | O => (Some acc, σ)
               | S k' => match dec fail s' σ with
                         | (Some o, σ1) => loop k' σ1 (oapp acc o)
                         | (None, σ1) => (None, emitl (release acc) σ1)
                         end
               end) n (mkSt (nid σ) (S b) (pos σ) (evs σ ++ [LAlloc b])) ([], []) with
      | (Some o, σ2) => (Some (fst o, snd o ++ [b]), σ2)
      | (None, σ2) => (None, emitl [LFree b] σ2)
      end
  end.

(* the whole experiment: decode; a successful value is dropped afterwards *)
Definition experiment (fail : nat) (s : shape) : list lev :=
  match dec fail s (mkSt 0 0 0 []) with
  | (Some o, σ) => evs σ ++ release o
  | (None, σ) => evs σ
  end.

Definition is_new (i : nat) (e : lev) := match e with LNew j => i =? j | _ => false end.
Definition is_drop (i : nat) (e : lev) := match e with LDrop j => i =? j | _ => false end.
Definition is_alloc (i : nat) (e : lev) := match e with LAlloc j => i =? j | _ => false end.
Definition is_free (i : nat) (e : lev) := match e with LFree j => i =? j | _ => false end.
Fixpoint cnt (f : lev -> bool) (l : list lev) : nat :=
  match l with [] => 0 | e :: r => (if f e then 1 else 0) + cnt f r end.
Lemma cnt_app f a b : cnt f (a ++ b) = (cnt f a + cnt f b)%nat.
Proof. induction a as [|e a IH]; cbn [app cnt]; [reflexivity|]. rewrite IH. lia. Qed.

Fixpoint occ (i : nat) (l : list nat) : nat :=
  match l with [] => 0 | j :: r => (if i =? j then 1 else 0) + occ i r end.
Lemma occ_app i a b : occ i (a ++ b) = (occ i a + occ i b)%nat.
Proof. induction a as [|e a IH]; cbn [app occ]; [reflexivity|]. rewrite IH. lia. Qed.

Lemma cnt_map_occ f (g : nat -> lev) i l : (forall j, f (g j) = (i =? j)) -> cnt f (map g l) = occ i l.
Proof. intros H. induction l as [|j l IH]; cbn [map cnt occ]; [reflexivity|]. now rewrite H, IH. Qed.
Lemma cnt_map_none f (g : nat -> lev) l : (forall j, f (g j) = false) -> cnt f (map g l) = 0.
Proof. intros H. induction l as [|j l IH]; cbn [map cnt]; [reflexivity|]. now rewrite H, IH. Qed.

Lemma cnt_release_drop i o : cnt (is_drop i) (release o) = occ i (fst o).
Proof. unfold release. rewrite cnt_app, (cnt_map_occ _ LDrop i), cnt_map_none; auto. Qed.
Lemma cnt_release_free i o : cnt (is_free i) (release o) = occ i (snd o).
Proof. unfold release. rewrite cnt_app, (cnt_map_occ _ LFree i), cnt_map_none; auto. Qed.
Lemma cnt_release_none f o : (forall j, f (LDrop j) = false) -> (forall j, f (LFree j) = false) -> cnt f (release o) = 0.
Proof. intros Hd Hf. unfold release. now rewrite cnt_app, !cnt_map_none. Qed.

(* Elements (created by LNew, released by LDrop) and heap blocks (LAlloc, LFree) obey the same
   discipline.  [bal lo hi ev o]: over the events [ev], which draw fresh ids from [lo, hi),
   every id is created at most once and is either released as often or still in [o]
   (read as a multiset). *)
Section Space.
  Variables mk rel : nat -> lev -> bool.

  Definition bal (lo hi : nat) (ev : list lev) (o : list nat) : Prop :=
    lo <= hi /\
    forall i, cnt (mk i) ev = cnt (rel i) ev + occ i o /\
              cnt (mk i) ev <= 1 /\ (cnt (mk i) ev = 1 -> lo <= i < hi).

  Lemma bal_nil lo : bal lo lo [] [].
  Proof. split; [lia|]. intros i. cbn. lia. Qed.

  Lemma bal_one lo e : (forall i, mk i e = (i =? lo)) -> (forall i, rel i e = false) -> bal lo (S lo) [e] [lo].
  Proof.
    intros Hm Hr. split; [lia|]. intros i. cbn [cnt occ]. rewrite Hm, Hr.
    destruct (Nat.eqb_spec i lo); lia.
  Qed.

  Lemma bal_own lo hi ev o o' : bal lo hi ev o -> (forall i, occ i o' = occ i o) -> bal lo hi ev o'.
  Proof. intros [L H] Ho. split; [exact L|]. intros i. rewrite Ho. apply H. Qed.

  (* consecutive segments draw from consecutive id ranges, so no id is created twice *)
  Lemma bal_app lo mid hi e1 e2 o1 o2 o : bal lo mid e1 o1 -> bal mid hi e2 o2 ->
    (forall i, occ i o = occ i o1 + occ i o2) -> bal lo hi (e1 ++ e2) o.
  Proof.
    intros [L1 H1] [L2 H2] Ho. split; [lia|]. intros i. rewrite !cnt_app, Ho.
    specialize (H1 i). specialize (H2 i). lia.
  Qed.

  Lemma bal_release lo hi ev o l : bal lo hi ev o ->
    (forall i, cnt (mk i) l = 0) -> (forall i, cnt (rel i) l = occ i o) -> bal lo hi (ev ++ l) [].
  Proof.
    intros [L H] Hm Hr. split; [lia|]. intros i. rewrite !cnt_app, Hm, Hr.
    specialize (H i). cbn [occ]. lia.
  Qed.

  Lemma bal_quiet lo l : (forall i, cnt (mk i) l = 0) -> (forall i, cnt (rel i) l = 0) -> bal lo lo l [].
  Proof. exact (bal_release lo lo [] [] l (bal_nil lo)). Qed.

  Lemma bal_closed lo hi ev i : bal lo hi ev [] -> cnt (mk i) ev = cnt (rel i) ev /\ cnt (mk i) ev <= 1.
  Proof. intros [_ H]. specialize (H i). cbn [occ] in H. lia. Qed.
End Space.
Arguments bal_release {mk rel lo hi ev o l}.
Arguments bal_own {mk rel lo hi ev o o'}.

Lemma release_elements lo hi ev o : bal is_new is_drop lo hi ev (fst o) -> bal is_new is_drop lo hi (ev ++ release o) [].
Proof. intros H. apply (bal_release H); intros i; [now apply cnt_release_none|apply cnt_release_drop]. Qed.
Lemma release_blocks lo hi ev o : bal is_alloc is_free lo hi ev (snd o) -> bal is_alloc is_free lo hi (ev ++ release o) [].
Proof. intros H. apply (bal_release H); intros i; [now apply cnt_release_none|apply cnt_release_free]. Qed.

Definition ownof (r : option own) : own := match r with Some o => o | None => ([], []) end.

Definition inv (σ : st) (r : option own) (σ' : st) : Prop :=
  exists ev, evs σ' = evs σ ++ ev /\
    (nid σ <= nid σ')%nat /\ (nblk σ <= nblk σ')%nat /\
    (forall i, cnt (is_new i) ev = (cnt (is_drop i) ev + occ i (fst (ownof r)))%nat) /\
    (forall b, cnt (is_alloc b) ev = (cnt (is_free b) ev + occ b (snd (ownof r)))%nat) /\
    (forall i, (cnt (is_new i) ev <= 1)%nat /\ (cnt (is_new i) ev = 1%nat -> (nid σ <= i < nid σ')%nat)) /\
    (forall b, (cnt (is_alloc b) ev <= 1)%nat /\ (cnt (is_alloc b) ev = 1%nat -> (nblk σ <= b < nblk σ')%nat)).

(* [inv] space by space *)
Definition balanced (σ : st) (r : option own) (σ' : st) : Prop :=
  exists ev, evs σ' = evs σ ++ ev /\
    bal is_new is_drop (nid σ) (nid σ') ev (fst (ownof r)) /\
    bal is_alloc is_free (nblk σ) (nblk σ') ev (snd (ownof r)).

Lemma balanced_inv σ r σ' : balanced σ r σ' -> inv σ r σ'.
Proof.
  intros (ev & E & [Ln Hn] & [Lb Hb]). exists ev.
  repeat split; trivial; now (apply Hn || apply Hb).
Qed.

Lemma balanced_idle σ r σ' : ownof r = ([], []) -> nid σ' = nid σ -> nblk σ' = nblk σ -> evs σ' = evs σ ->
  balanced σ r σ'.
Proof.
  intros Hr Hn Hb He. exists []. rewrite Hr, Hn, Hb, He, app_nil_r.
  split; [reflexivity|]. split; apply bal_nil.
Qed.
Lemma balanced_refl σ : balanced σ (Some ([], [])) σ.
Proof. now apply balanced_idle. Qed.

Lemma balanced_new σ : balanced σ (Some ([nid σ], [])) (mkSt (S (nid σ)) (nblk σ) (S (pos σ)) (evs σ ++ [LNew (nid σ)])).
Proof.
  exists [LNew (nid σ)]. split; [reflexivity|]. split; [apply bal_one|apply bal_quiet]; reflexivity.
Qed.

Definition alloc_st (σ : st) : st := mkSt (nid σ) (S (nblk σ)) (pos σ) (evs σ ++ [LAlloc (nblk σ)]).
Lemma balanced_alloc σ : balanced σ (Some ([], [nblk σ])) (alloc_st σ).
Proof.
  exists [LAlloc (nblk σ)]. split; [reflexivity|]. split; [apply bal_quiet|apply bal_one]; reflexivity.
Qed.

Lemma balanced_seq_ok σ σ1 σ2 oa ob :
  balanced σ (Some oa) σ1 -> balanced σ1 (Some ob) σ2 -> balanced σ (Some (oapp oa ob)) σ2.
Proof.
  intros (e1 & E1 & N1 & B1) (e2 & E2 & N2 & B2). exists (e1 ++ e2).
  split; [now rewrite E2, E1, app_assoc|].
  split; eapply bal_app; eauto; intros i; apply occ_app.
Qed.

Lemma balanced_seq_fail σ σ1 σ2 oa :
  balanced σ (Some oa) σ1 -> balanced σ1 None σ2 -> balanced σ None (emitl (release oa) σ2).
Proof.
  intros (e1 & E1 & N1 & B1) (e2 & E2 & N2 & B2). exists ((e1 ++ e2) ++ release oa).
  split; [cbn [emitl evs]; now rewrite E2, E1, !app_assoc|].
  split; [apply release_elements|apply release_blocks]; eapply bal_app; eauto; intros i; cbn; lia.
Qed.
Arguments balanced_seq_ok {σ σ1 σ2 oa ob}.
Arguments balanced_seq_fail {σ σ1 σ2 oa}.

(* a heap block around an inner decode: allocated before, freed on failure, owned on success
   ([dec] writes this out for SBox and SVec, and the loop [seqloop] below for SArr and SVec: the
   lemmas about [block] and [seqloop] apply to it by conversion) *)
Definition block (σ : st) (f : st -> option own * st) : option own * st :=
  match f (alloc_st σ) with
  | (Some o, σ2) => (Some (fst o, snd o ++ [nblk σ]), σ2)
  | (None, σ2) => (None, emitl [LFree (nblk σ)] σ2)
  end.

(* a step that leaves the ledger balanced, from every state *)
Definition keeps (f : st -> option own * st) : Prop := forall σ, balanced σ (fst (f σ)) (snd (f σ)).

Lemma keeps_block f : keeps f -> keeps (fun σ => block σ f).
Proof.
  intros Hf σ. pose proof (Hf (alloc_st σ)) as H. unfold block. destruct (f (alloc_st σ)) as [[o|] σ2]; cbn [fst snd] in *.
  - destruct (balanced_seq_ok (balanced_alloc σ) H) as (ev & E & Hn & Hb).
    exists ev. split; [exact E|]. split; [exact Hn|].
    apply (bal_own Hb). intros i. cbn [ownof snd oapp app]. rewrite occ_app. cbn [occ]. lia.
  - exact (balanced_seq_fail (balanced_alloc σ) H).
Qed.

Definition seqloop (fail : nat) (s' : shape) :=
  fix loop (k : nat) (σ : st) (acc : own) {struct k} : option own * st :=
    match k with
    | O => (Some acc, σ)
    | S k' => match dec fail s' σ with
              | (Some o, σ1) => loop k' σ1 (oapp acc o)
              | (None, σ1) => (None, emitl (release acc) σ1)
              end
    end.

Lemma seqloop_balanced fail s' : keeps (dec fail s') ->
  forall k σ0 σ acc, balanced σ0 (Some acc) σ ->
  balanced σ0 (fst (seqloop fail s' k σ acc)) (snd (seqloop fail s' k σ acc)).
Proof.
  intros IH. induction k as [|k IHk]; intros σ0 σ acc Hacc; cbn [seqloop fst snd]; [exact Hacc|].
  specialize (IH σ). destruct (dec fail s' σ) as [[o|] σ1]; cbn [fst snd] in IH.
  - apply IHk. eapply balanced_seq_ok; eauto.
  - cbn [fst snd]. eapply balanced_seq_fail; eauto.
Qed.

Lemma keeps_seqloop fail s n : keeps (dec fail s) -> keeps (fun σ => seqloop fail s n σ ([], [])).
Proof. intros H σ. apply seqloop_balanced; [exact H|apply balanced_refl]. Qed.

Lemma dec_balanced fail s : keeps (dec fail s).
Proof.
  induction s as [| |n s IH|n s IH|s IH|a IHa b IHb].
  - intros σ. apply balanced_refl.
  - intros σ. cbn [dec]. destruct (pos σ =? fail); cbn [fst snd]; [now apply balanced_idle|apply balanced_new].
  - (* array *) exact (keeps_seqloop fail s n IH).
  - (* vector *) exact (keeps_block _ (keeps_seqloop fail s n IH)).
  - (* box *) exact (keeps_block _ IH).
  - (* pair *) intros σ. cbn [dec]. specialize (IHa σ). destruct (dec fail a σ) as [[oa|] σ1]; cbn [fst snd] in *; [|exact IHa].
    specialize (IHb σ1). destruct (dec fail b σ1) as [[ob|] σ2]; cbn [fst snd] in *.
    + eapply balanced_seq_ok; eauto.
    + eapply balanced_seq_fail; eauto.
Qed.

Theorem dec_inv fail : forall s σ, inv σ (fst (dec fail s σ)) (snd (dec fail s σ)).
Proof. intros s σ. apply balanced_inv, dec_balanced. Qed.

(* in either outcome the experiment ends by releasing what the decode returned *)
Lemma experiment_release fail s :
  experiment fail s = let (r, σ) := dec fail s (mkSt 0 0 0 []) in evs σ ++ release (ownof r).
Proof.
  unfold experiment. destruct (dec fail s (mkSt 0 0 0 [])) as [[o|] σ]; [reflexivity|symmetry; apply app_nil_r].
Qed.

(* the statement: for every shape (hence every N, every nesting) and every failure position,
   after the experiment every element was constructed at most once and dropped exactly as often
   as it was constructed; every block allocated at most once and freed exactly as often *)
Theorem ledger_balanced fail s : forall i,
  cnt (is_new i) (experiment fail s) = cnt (is_drop i) (experiment fail s) /\
  (cnt (is_new i) (experiment fail s) <= 1) /\
  cnt (is_alloc i) (experiment fail s) = cnt (is_free i) (experiment fail s) /\
  (cnt (is_alloc i) (experiment fail s) <= 1).
Proof.
  intros i. rewrite experiment_release.
  destruct (dec_balanced fail s (mkSt 0 0 0 [])) as (ev & E & Hn & Hb).
  destruct (dec fail s (mkSt 0 0 0 [])) as [r σ]. cbn [fst snd evs app] in *. rewrite E.
  apply release_elements, bal_closed with (i := i) in Hn. apply release_blocks, bal_closed with (i := i) in Hb.
  tauto.
Qed.

(* That a drop never precedes the construction it releases (in every prefix, drops <= news) is not
   stated: order-sensitive properties - use after free inside unsafe blocks - are outside this model. *)

(* number of elements constructed before the failure: what the harness observes *)
Definition n_new (l : list lev) : nat := cnt (fun e => match e with LNew _ => true | _ => false end) l.
Definition n_drop (l : list lev) : nat := cnt (fun e => match e with LDrop _ => true | _ => false end) l.

Inductive fkind := FNone | FErr | FPanic.
Inductive ledger_case := KLedger (slots at_ : N) (k : fkind) (constructed dropped : N).

(* the correspondence: in the flat experiment of [slots] elements failing at [at_], the
   implementation constructed and dropped what the model's array of elements does *)
Definition ledger_check (c : ledger_case) : bool :=
  match c with
  | KLedger slots at_ k constructed dropped =>
      let fail := match k with FNone => N.to_nat slots | _ => N.to_nat at_ end in
      let ev := experiment fail (SArr (N.to_nat slots) SEl) in
      (N.of_nat (n_new ev) =? constructed)%N && (N.of_nat (n_drop ev) =? dropped)%N
  end.

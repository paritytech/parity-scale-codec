(* C13: MaxEncodedLen / ConstEncodedLen / encoded_fixed_size as functions of the type
   descriptor (src/max_encoded_len.rs, src/const_encoded_len.rs, derive/src/max_encoded_len.rs
   with fields in their selected representation), and their soundness. *)
Require Import Scale.Bytes Scale.Eres Scale.Prog Scale.CompactSpec Scale.Codec Scale.CodecEnc Scale.CodecMore.

Definition sat_add' (a b : N) : N := N.min usize_max (a + b).

Definition mel_compact (B : N) : N :=
  if B =? 1 then 2 else if B =? 2 then 4 else if B =? 4 then 5 else if B =? 8 then 9 else 17.

Fixpoint mel (t : ty) : option N :=
  match t with
  | TUnit => Some 0
  | TBool => Some 1
  | TPrim B => Some B
  | TCompact B => Some (mel_compact B)
  | TNonZero B => Some B
  | TOption t' => match mel t' with Some m => Some (sat_add' m 1) | None => None end
  | TResult a b => match mel a, mel b with Some x, Some y => Some (sat_add' (N.max x y) 1) | _, _ => None end
  | TArray n t' => match mel t' with Some m => Some (sat_mul m n) | None => None end
  | TPair a b => match mel a, mel b with Some x, Some y => Some (sat_add' x y) | _, _ => None end
  | TBox _ t' => mel t'
  | TDuration => Some 12
  | TEnum vs => match mel_vars vs with Some m => Some (sat_add' m 1) | None => None end
  | TOptionBool | TColl _ _ _ | TStr | TBits _ _ => None
  end
with mel_vars (vs : variants) : option N :=
  match vs with
  | VsNil => Some 0
  | VsCons _ t r => match mel t, mel_vars r with Some x, Some y => Some (N.max x y) | _, _ => None end
  end.

(* ConstEncodedLen markers *)
Fixpoint cel (t : ty) : bool :=
  match t with
  | TUnit | TBool | TPrim _ | TNonZero _ | TDuration => true
  | TArray _ t' | TBox _ t' => cel t'
  | TPair a b => cel a && cel b
  | _ => false
  end.

Lemma len_le_enc n v : length (le_enc n v) = n. Proof. apply le_enc_len. Qed.

Lemma spec_compact_len_le B n : okB B = true -> n < 2 ^ (8 * B) -> N.of_nat (length (spec_compact n)) <= mel_compact B.
Proof.
  intros HB Hn. apply okB_okwidth in HB. rewrite spec_compact_length.
  assert (Hb: N.of_nat (byte_len n) <= B) by (apply byte_len_le_iff; now rewrite pow256).
  destruct HB as [->|[->|[->|[->| ->]]]]; cbv [mel_compact N.eqb Pos.eqb].
  all: destruct (N.ltb_spec n (2 ^ 6)); [lia|]; destruct (N.ltb_spec n (2 ^ 14)); [lia|]; destruct (N.ltb_spec n (2 ^ 30)); lia.
Qed.

Lemma mel_vars_at vs : forall mv k i t, mel_vars vs = Some mv -> variant_at vs k = Some (i, t) ->
  exists mt, mel t = Some mt /\ mt <= mv.
Proof.
  induction vs as [|j u r IH]; intros mv [|k] i t; cbn [mel_vars variant_at]; try discriminate;
    destruct (mel u) as [mu|] eqn:Eu; try discriminate; destruct (mel_vars r) as [mr|]; try discriminate; intros [= <-].
  - intros [= _ <-]. exists mu. split; [exact Eu|lia].
  - intros H. destruct (IH mr k i t eq_refl H) as (mt & E & Hle). exists mt. split; [exact E|lia].
Qed.

(* no value encodes to more bytes than the declared maximum (when it did not saturate) *)
Theorem mel_sound_enc :
  (forall t v bs, Enc t v bs ->
     match mel t with Some m => m < usize_max -> N.of_nat (length bs) <= m | None => True end) /\
  (forall t l bs, Encs t l bs ->
     match mel t with Some m => m < usize_max -> N.of_nat (length bs) <= m * N.of_nat (length l) | None => True end).
Proof.
  apply Enc_Encs_ind; cbn [mel]; unfold sat_add', sat_mul; try (intros; exact I).
  - (* unit *) intros _. cbn. lia.
  - (* bool *) intros b _. cbn. lia.
  - (* prim *) intros B n _ _ _. rewrite le_enc_len. lia.
  - (* compact *) intros B n HB Hn _. now apply spec_compact_len_le.
  - (* nonzero *) intros B n _ _ _. rewrite le_enc_len. lia.
  - (* none *) intros t. destruct (mel t); [|exact I]. cbn [length]. lia.
  - (* some *) intros t v bs _ IH. destruct (mel t) as [mt|]; [|exact I]. cbn [length]. lia.
  - (* ok *) intros t e v bs _ IH. destruct (mel t) as [mt|]; [|exact I]. destruct (mel e) as [me|]; [|exact I]. cbn [length]. lia.
  - (* err *) intros t e v bs _ IH. destruct (mel t) as [mt|]; [|exact I]. destruct (mel e) as [me|]; [|exact I]. cbn [length]. lia.
  - (* array *) intros t l bs Hl IH. destruct (mel t) as [mt|]; [|exact I].
    destruct Hl as [|t v l b bs Hv Hl]; [cbn; lia|]. cbn [length] in *. nia.
  - (* pair *) intros a b x y bx by' _ IHa _ IHb. destruct (mel a) as [ma|]; [|exact I]. destruct (mel b) as [mb|]; [|exact I].
    rewrite app_length. lia.
  - (* box *) intros sz t v bs _ IH. exact IH.
  - (* duration *) intros s n _ _ _. rewrite app_length, !le_enc_len. lia.
  - (* enum *) intros vs k i t v bs _ Hat _ IH. destruct (mel_vars vs) as [mv|] eqn:Ev; [|exact I].
    destruct (mel_vars_at vs mv k i t Ev Hat) as (mt & Et & Hle). rewrite Et in IH. cbn [length]. lia.
  - (* no items *) intros t. destruct (mel t); [|exact I]. cbn. lia.
  - (* an item and the rest *) intros t v l b bs _ IHv _ IHl. destruct (mel t) as [m|]; [|exact I]. rewrite app_length. cbn [length]. lia.
Qed.

Theorem mel_sound t m v bs : mel t = Some m -> m < usize_max -> wf t v = true -> enc_spec t v = EOk bs ->
  N.of_nat (length bs) <= m.
Proof.
  intros Hm Hlt Hw He. pose proof (proj1 mel_sound_enc t v bs (enc_view t v bs Hw He)) as H.
  rewrite Hm in H. exact (H Hlt).
Qed.

(* constant encoded length: every value encodes to exactly the declared length *)
Lemma cel_exact_enc :
  (forall t v bs, Enc t v bs -> cel t = true ->
     match mel t with Some m => m < usize_max -> N.of_nat (length bs) = m | None => True end) /\
  (forall t l bs, Encs t l bs -> cel t = true ->
     match mel t with Some m => m < usize_max -> N.of_nat (length bs) = m * N.of_nat (length l) | None => True end).
Proof.
  apply Enc_Encs_ind; cbn [cel mel]; unfold sat_add', sat_mul; try discriminate.
  - (* unit *) reflexivity.
  - (* bool *) reflexivity.
  - (* prim *) intros B n _ _ _ _. rewrite le_enc_len. lia.
  - (* nonzero *) intros B n _ _ _ _. rewrite le_enc_len. lia.
  - (* array *) intros t l bs Hl IH Hc. specialize (IH Hc). destruct (mel t) as [mt|]; [|exact I].
    destruct Hl as [|t v l b bs Hv Hl]; [cbn; lia|]. cbn [length] in *. nia.
  - (* pair *) intros a b x y bx by' _ IHa _ IHb Hc. apply andb_prop in Hc as [Ha Hb]. specialize (IHa Ha). specialize (IHb Hb).
    destruct (mel a) as [ma|]; [|exact I]. destruct (mel b) as [mb|]; [|exact I]. rewrite app_length. lia.
  - (* box *) intros sz t v bs _ IH. exact IH.
  - (* duration *) intros s n _ _ _ _. rewrite app_length, !le_enc_len. lia.
  - (* no items *) intros t _. destruct (mel t); [|exact I]. cbn. lia.
  - (* an item and the rest *) intros t v l b bs _ IHv _ IHl Hc. specialize (IHv Hc). specialize (IHl Hc).
    destruct (mel t) as [m|]; [|exact I]. rewrite app_length. cbn [length]. lia.
Qed.

Theorem cel_exact : forall t m, cel t = true -> mel t = Some m -> m < usize_max ->
  forall v bs, wf t v = true -> enc spec_c t v = EOk bs -> N.of_nat (length bs) = m.
Proof.
  intros t m Hc Hm Hlt v bs Hw He. pose proof (proj1 cel_exact_enc t v bs (enc_view t v bs Hw He) Hc) as H.
  rewrite Hm in H. exact (H Hlt).
Qed.

(* encoded_fixed_size() = Some s: every value has that size *)
Lemma fixed_size_enc :
  (forall t v bs, Enc t v bs -> match fixed_size t with Some s => N.of_nat (length bs) = s | None => True end) /\
  (forall t l bs, Encs t l bs ->
     match fixed_size t with Some s => N.of_nat (length bs) = s * N.of_nat (length l) | None => True end).
Proof.
  apply Enc_Encs_ind; cbn [fixed_size]; try (intros; exact I).
  - (* bool *) reflexivity.
  - (* prim *) intros B n _ _. destruct (B =? 1); [exact I|]. rewrite le_enc_len. lia.
  - (* array *) intros t l bs _ IH. destruct (fixed_size t) as [st|]; [exact IH|exact I].
  - (* no items *) intros t. destruct (fixed_size t); [|exact I]. cbn. lia.
  - (* an item and the rest *) intros t v l b bs _ IHv _ IHl. destruct (fixed_size t); [|exact I]. rewrite app_length. cbn [length]. lia.
Qed.

Theorem fixed_size_exact : forall t s, fixed_size t = Some s ->
  forall v bs, wf t v = true -> enc spec_c t v = EOk bs -> N.of_nat (length bs) = s.
Proof.
  intros t s Hs v bs Hw He. pose proof (proj1 fixed_size_enc t v bs (enc_view t v bs Hw He)) as H.
  now rewrite Hs in H.
Qed.

(* C19 — the counting input reports exactly the bytes delivered. *)
Require Import Scale.Bytes Scale.Eres Scale.Prog Scale.ProgFacts Scale.Monitors Scale.Codec Scale.CodecDec Scale.CodecRt .

(* for EVERY decoder program and input, success or failure: the count equals the number of
   bytes the wrapped input has delivered (input length minus what it still holds),
   saturating at u64::MAX instead of wrapping; the result is the unwrapped result *)
Theorem C19_count_exact : forall A (p : prog A) known bs,
  match run counted p known bs 0, runo p known bs with
  | ROk v rest c, OOk v' rest' =>
      v = v' /\ rest = rest' /\ c = N.min u64max (N.of_nat (length bs) - N.of_nat (length rest))
  | RErr c, OErr rest => c = N.min u64max (N.of_nat (length bs) - N.of_nat (length rest))
  | RPanic, OPanic => True
  | RNoFuel, ONoFuel => True
  | _, _ => False
  end.
Proof. exact counted_exact. Qed.

(* the step function: failed reads add nothing (run never steps the monitor on a failed
   read), successful reads add their size, saturating *)
Theorem C19_feed : forall evs c, c <= u64max ->
  feed counted c evs = (N.min u64max (c + sum_reads evs), true).
Proof. exact counted_feed. Qed.

(* after a successful decode of an encoding the count is the encoded length *)
Theorem C19_count_is_encoded_length : forall t v bs known rest,
  wf_ty t = true -> wf t v = true -> enc_spec t v = EOk bs ->
  N.of_nat (length bs) <= u64max ->
  exists v', run counted (dec t) known (bs ++ rest) 0 = ROk v' rest (N.of_nat (length bs)).
Proof.
  intros t v bs known rest Ht Hw He Hl. exists (canon t v).
  apply counted_ok; [now apply roundtrip|exact Hl].
Qed.

Example C19_nonvacuous :
  run counted (dec (TColl CVec 2 (TPrim 2))) true [x08; x01; x00; x02; x00; xff] 0 = ROk (VSeq [VN 1; VN 2]) [xff] 5 /\
  run counted (dec (TColl CVec 2 (TPrim 2))) false [x08; x01; x00; x02] 0 = RErr 1 /\
  feed counted (u64max - 1) [ERead 5] = (u64max, true).
Proof. repeat split; vm_compute; reflexivity. Qed.

Print Assumptions C19_count_exact.
Print Assumptions C19_feed.
Print Assumptions C19_count_is_encoded_length.

(* C11 — depth-limited decoding is transparent, monotone and bounded by the nesting. *)
Require Import Scale.Bytes Scale.Eres Scale.Prog Scale.Monitors Scale.Codec Scale.CodecDec Scale.CodecRt Scale.Depth Scale.Rec Scale.RecRt.

(* for EVERY decoder program (hence every type), input and limit: the limited decode returns
   what the unlimited decode returns iff the nesting of descend/ascend in its trace is at
   most L, and an error otherwise *)
Theorem C11_exact : forall A (p : prog A) known bs L,
  let '(o, evs) := runt p known bs in
  if max_depth 0 evs <=? L
  then exists d, run (depthmon L) p known bs 0 = lift_out o d
  else exists d, run (depthmon L) p known bs 0 = RErr d.
Proof. exact depth_limit_exact. Qed.

Theorem C11_transparent : forall A (p : prog A) known bs L,
  match run (depthmon L) p known bs 0 with
  | ROk v rest _ => runo p known bs = OOk v rest
  | RErr _ => True
  | RPanic => runo p known bs = OPanic
  | RNoFuel => runo p known bs = ONoFuel
  end.
Proof. intros. apply run_transparent. Qed.

Theorem C11_error_preserved : forall A (p : prog A) known bs L r,
  runo p known bs = OErr r -> exists d, run (depthmon L) p known bs 0 = RErr d.
Proof. intros. eapply run_err_of_err; eauto. Qed.

Theorem C11_monotone : forall A (p : prog A) known bs L L' v rest d,
  L <= L' -> run (depthmon L) p known bs 0 = ROk v rest d ->
  exists d', run (depthmon L') p known bs 0 = ROk v rest d'.
Proof. exact depth_limit_monotone. Qed.

Example C11_nonvacuous :
  let t := TColl CVec 24 (TColl CVec 24 (TColl CVec 1 (TPrim 1))) in
  let bs := [x04; x04; x04; x2a] in
  max_depth 0 (snd (runt (dec t) true bs)) = 2 /\
  run (depthmon 2) (dec t) true bs 0 = ROk (VSeq [VSeq [VSeq [VN 42]]]) [] 0 /\
  run (depthmon 1) (dec t) true bs 0 = RErr 2.
Proof. repeat split; vm_compute; reflexivity. Qed.

(* value side: the nesting of the trace of decoding an ENCODING is the nesting depth of the encoded
   value (ddepth: one level per Box/Rc/Arc and per non-bulk sequence/list/set/map/heap, none for
   options, tuples, arrays, variants, strings and sequences of fixed-width primitives) *)
Theorem C11_trace_depth_is_value_depth : forall t v bs known rest,
  wf_ty t = true -> wf t v = true -> enc_spec t v = EOk bs ->
  max_depth 0 (snd (runt (dec t) known (bs ++ rest))) = ddepth t v.
Proof. exact trace_depth_is_value_depth. Qed.

(* hence, for every well-formed value: decoding its encoding with limit L yields the value when
   L >= its nesting depth and an error when it is deeper *)
Theorem C11_limit_on_encodings : forall t v bs known rest L,
  wf_ty t = true -> wf t v = true -> enc_spec t v = EOk bs ->
  if ddepth t v <=? L
  then exists d, run (depthmon L) (dec t) known (bs ++ rest) 0 = ROk (canon t v) rest d
  else exists d, run (depthmon L) (dec t) known (bs ++ rest) 0 = RErr d.
Proof. exact depth_limit_on_encodings. Qed.

Example C11_value_nonvacuous :
  let t := TColl CVec 24 (TBox 8 (TOption (TColl CList 1 (TPrim 1)))) in
  let v := VSeq [VNone; VSome (VSeq [VN 1; VN 2])] in
  wf_ty t = true /\ wf t v = true /\
  enc_spec t v = EOk [x08; x00; x01; x08; x01; x02] /\ ddepth t v = 3.
Proof. repeat split; vm_compute; reflexivity. Qed.

(* recursive derived types (Rec.v: an index byte, then fields that are universe types or recursive
   occurrences held by Box<Self>, Option<Box<Self>>, Vec<Self>).  The decoder recurses natively: the
   model gives it a recursion budget F - the frames the native stack can hold - and answers NoFuel
   when it runs out, the model's rendering of a stack overflow.  All the theorems above apply to it
   (they hold for every program).  Stack safety: with a depth limit L below the budget, the limited
   decode never runs out, whatever the input (adversarially deep input is rejected after at most
   L+1 frames) ... *)
Theorem C11_recursive_never_overflows : forall d F L known bs,
  wf_rdef d = true -> L < N.of_nat F -> run (depthmon L) (rdec F d) known bs 0 <> RNoFuel.
Proof. exact rec_depth_limit_never_overflows. Qed.

(* ... and its answer is the same for every budget above L *)
Theorem C11_recursive_budget_irrelevant : forall d F F' L known bs,
  wf_rdef d = true -> L < N.of_nat F -> (F <= F')%nat ->
  run (depthmon L) (rdec F' d) known bs 0 = run (depthmon L) (rdec F d) known bs 0.
Proof. exact rec_depth_limit_budget_irrelevant. Qed.

(* the reason: decode traces are well nested, and running out of a budget of F frames means the
   trace nests at least F levels deep *)
Theorem C11_recursive_overflow_means_deep : forall d, wf_rdef d = true -> forall F known bs evs,
  runt (rdec F d) known bs = (ONoFuel, evs) -> forall d0, d0 + N.of_nat F <= max_depth d0 evs.
Proof. intros d Hw F. exact (proj2 (rdec_nested d Hw F)). Qed.

(* every decoder of the universe leaves the nesting where it found it when it succeeds, on every
   input (not only on encodings) *)
Theorem C11_traces_well_nested : forall t known bs v r evs,
  runt (dec t) known bs = (OOk v r, evs) -> forall d, end_depth d evs = d.
Proof. exact dec_bok. Qed.

(* value side for recursive types: decoding the encoding of a recursive value with limit L yields
   the value when L covers its nesting depth (one level per Box / Vec holder on the deepest path)
   and an error when it is deeper *)
Theorem C11_recursive_limit_on_encodings : forall d F v bs known rest L,
  wf_rdef d = true -> ridx_ok d = true -> renc F d v = EOk bs ->
  if rdepth F d v <=? L
  then exists s, run (depthmon L) (rdec F d) known (bs ++ rest) 0 = ROk (rcanon F d v) rest s
  else exists s, run (depthmon L) (rdec F d) known (bs ++ rest) 0 = RErr s.
Proof. exact rec_depth_limit_on_encodings. Qed.

Definition ex_tree : rdef := [(0, [FTy (TPrim 1)]); (1, [FBox 32]); (2, [FBox 32; FTy (TPrim 2); FOptBox 32]); (5, [FVec 32])].
Example C11_recursive_nonvacuous :
  wf_rdef ex_tree = true /\
  (* Node(Node(Node(Leaf 7))) : nesting 3 *)
  run (depthmon 3) (rdec 4 ex_tree) true [x01; x01; x01; x00; x07] 0
    = ROk (VVar 1 (VPair (VVar 1 (VPair (VVar 1 (VPair (VVar 0 (VPair (VN 7) VUnit)) VUnit)) VUnit)) VUnit)) [] 0 /\
  run (depthmon 2) (rdec 3 ex_tree) true [x01; x01; x01; x00; x07] 0 = RErr 3 /\
  (* without a limit a budget of 3 frames overflows on the same input *)
  runo (rdec 3 ex_tree) true [x01; x01; x01; x00; x07] = ONoFuel.
Proof. repeat split; vm_compute; reflexivity. Qed.

Print Assumptions C11_exact.
Print Assumptions C11_transparent.
Print Assumptions C11_error_preserved.
Print Assumptions C11_monotone.
Print Assumptions C11_trace_depth_is_value_depth.
Print Assumptions C11_limit_on_encodings.
Print Assumptions C11_recursive_never_overflows.
Print Assumptions C11_recursive_budget_irrelevant.
Print Assumptions C11_recursive_overflow_means_deep.
Print Assumptions C11_traces_well_nested.
Print Assumptions C11_recursive_limit_on_encodings.

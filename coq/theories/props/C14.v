(* C14 — encodings are self-delimiting; consume-all entry points are exact. *)
Require Import Scale.Bytes Scale.Eres Scale.Prog Scale.ProgMore Scale.Codec Scale.CodecDec Scale.CodecMore Scale.Rec Scale.RecRt.

Theorem C14_locality : forall A (p : prog A) known x bs v r,
  runo p known bs = OOk v r -> runo p known (bs ++ x) = OOk v (r ++ x).
Proof. exact runo_extend. Qed.

Theorem C14_strict_prefix_fails : forall t v bs pre suf known,
  wf_ty t = true -> wf t v = true -> enc_spec t v = EOk bs ->
  bs = pre ++ suf -> suf <> [] -> forall v' r, runo (dec t) known pre <> OOk v' r.
Proof. exact strict_prefix_fails. Qed.

Theorem C14_concat_decodes_in_order : forall known (items : list (ty * val * list byte)) rest,
  Forall (fun x => wf_ty (item_ty x) = true /\
                   wf (item_ty x) (item_val x) = true /\ enc_spec (item_ty x) (item_val x) = EOk (item_bytes x)) items ->
  dec_all_of (map item_ty items) known (concat (map item_bytes items) ++ rest)
  = Some (map (fun x => canon (item_ty x) (item_val x)) items, rest).
Proof. exact concat_decodes_in_order. Qed.

Theorem C14_decode_all_exact : forall t bs v,
  decode_all t bs = OOk v [] <-> runo (dec t) true bs = OOk v [].
Proof. exact decode_all_exact. Qed.

Theorem C14_decode_all_rejects_trailing : forall t bs v b r,
  runo (dec t) true bs = OOk v (b :: r) -> decode_all t bs = OErr [].
Proof. exact decode_all_rejects_trailing. Qed.

Example C14_nonvacuous :
  decode_all (TOption (TPrim 2)) [x01; x05; x00] = OOk (VSome (VN 5)) [] /\
  decode_all (TOption (TPrim 2)) [x01; x05; x00; x00] = OErr [] /\
  runo (dec (TOption (TPrim 2))) true [x01; x05] = OErr [x05].
Proof. repeat split; vm_compute; reflexivity. Qed.

(* the same for recursive derived types, with any recursion budget *)
Theorem C14_recursive_strict_prefix_fails : forall d F v bs pre suf known,
  wf_rdef d = true -> ridx_ok d = true -> renc F d v = EOk bs ->
  bs = pre ++ suf -> suf <> [] ->
  forall F' v' r, (F <= F')%nat -> runo (rdec F' d) known pre <> OOk v' r.
Proof. exact rec_strict_prefix_fails. Qed.

Print Assumptions C14_locality.
Print Assumptions C14_strict_prefix_fails.
Print Assumptions C14_concat_decodes_in_order.
Print Assumptions C14_decode_all_exact.
Print Assumptions C14_decode_all_rejects_trailing.
Print Assumptions C14_recursive_strict_prefix_fails.

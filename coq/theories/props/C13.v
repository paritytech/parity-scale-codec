(* C13 — declared maximum / constant / fixed encoded lengths are true.
   mel / cel / fixed_size are the formulas of src/max_encoded_len.rs,
   src/const_encoded_len.rs, Decode::encoded_fixed_size and the derive (fields in their
   selected representation: a compact field contributes the bound of Compact<T>, an
   encoded_as field the bound of that type, skipped fields and variants nothing) as
   functions of the type descriptor; the check compares them with what the implementation
   reports for every registry and generated type on every run. *)
Require Import Scale.Bytes Scale.Eres Scale.Prog Scale.CompactSpec Scale.Codec Scale.CodecMore Scale.Mel.

Theorem C13_mel_sound : forall t m v bs, mel t = Some m -> m < usize_max -> wf t v = true ->
  enc_spec t v = EOk bs -> N.of_nat (length bs) <= m.
Proof. exact mel_sound. Qed.

Theorem C13_cel_exact : forall t m, cel t = true -> mel t = Some m -> m < usize_max ->
  forall v bs, wf t v = true -> enc_spec t v = EOk bs -> N.of_nat (length bs) = m.
Proof. exact cel_exact. Qed.

Theorem C13_fixed_size_exact : forall t s, fixed_size t = Some s ->
  forall v bs, wf t v = true -> enc_spec t v = EOk bs -> N.of_nat (length bs) = s.
Proof. exact fixed_size_exact. Qed.

(* the compact bound table is tight and sufficient for every width *)
Theorem C13_compact_bound : forall B n, okB B = true -> n < 2 ^ (8 * B) ->
  N.of_nat (length (spec_compact n)) <= mel_compact B.
Proof. exact spec_compact_len_le. Qed.

Example C13_nonvacuous :
  (* struct { #[codec(compact)] a: u32 } reports 5 (the defect F2 reported 4) *)
  mel (TPair (TCompact 4) TUnit) = Some 5 /\
  enc_spec (TPair (TCompact 4) TUnit) (VPair (VN 4294967295) VUnit) = EOk [x03; xff; xff; xff; xff] /\
  mel (TEnum (VsCons 0 TUnit (VsCons 1 (TPair (TPrim 8) TUnit) VsNil))) = Some 9 /\
  cel (TArray 3 (TPair (TPrim 2) (TPair TBool TUnit))) = true /\
  mel (TArray 3 (TPair (TPrim 2) (TPair TBool TUnit))) = Some 9.
Proof. repeat split; vm_compute; reflexivity. Qed.

Print Assumptions C13_mel_sound.
Print Assumptions C13_cel_exact.
Print Assumptions C13_fixed_size_exact.
Print Assumptions C13_compact_bound.

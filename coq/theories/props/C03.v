(* C03 — the decoder is total on any bytes and rejects malformed input. *)
Require Import Scale.Bytes Scale.Prog Scale.ProgFacts Scale.ProgMore Scale.Chunks Scale.CompactImpl
  Scale.CompactSpec Scale.CompactProofs Scale.CompactTheorems Scale.Utf8 Scale.Codec Scale.CodecDec Scale.CodecRt Scale.Rec.

(* for every well-formed type descriptor and EVERY byte string: an error or a value; never a
   panic (the assert in the bit-sequence decoder, the unreachable!() arms of the compact
   decoders are not reachable), never out of fuel (the model has none: structural recursion) *)
Theorem C03_total : forall t known bs, wf_ty t = true ->
  runo (dec t) known bs <> OPanic /\ runo (dec t) known bs <> ONoFuel.
Proof. exact dec_total. Qed.

(* what is consumed is a prefix of the input *)
Theorem C03_consumes_prefix : forall t known bs,
  match runo (dec t) known bs with
  | OOk _ rest | OErr rest => exists pre, bs = pre ++ rest
  | _ => True
  end.
Proof. intros. apply runo_suffix. Qed.

(* compact integers: accepted iff canonical and fits (non-minimal and over-wide forms rejected) *)
Theorem C03_compact_exact : forall B known bs v rest, okwidth B ->
  (oview (runo (dec_compact B) known bs) = OOk v rest <-> v < 2 ^ (8 * B) /\ bs = spec_compact v ++ rest).
Proof. exact compact_dec_iff. Qed.

(* the named malformed classes *)
Theorem C03_bool_tag_rejected : forall b known rest, 2 <= Byte.to_N b ->
  runo (dec TBool) known (b :: rest) = OErr rest.
Proof.
  intros b known rest. apply tag2_rejected.
Qed.

Theorem C03_option_tag_rejected : forall t b known rest, 2 <= Byte.to_N b ->
  runo (dec (TOption t)) known (b :: rest) = OErr rest.
Proof.
  intros t b known rest. apply tag2_rejected.
Qed.

Theorem C03_result_tag_rejected : forall t e b known rest, 2 <= Byte.to_N b ->
  runo (dec (TResult t e)) known (b :: rest) = OErr rest.
Proof.
  intros t e b known rest. apply tag2_rejected.
Qed.

Theorem C03_optionbool_tag_rejected : forall b known rest, 3 <= Byte.to_N b ->
  runo (dec TOptionBool) known (b :: rest) = OErr rest.
Proof.
  intros b known rest H. cbn [dec read_byte bindp runo].
  destruct (Byte.to_N b) as [|[p|[q|q|]|]]; try reflexivity; lia.
Qed.

Fixpoint no_index (b : N) (vs : variants) : bool :=
  match vs with VsNil => true | VsCons i _ r => negb (b =? i mod 256) && no_index b r end.

Theorem C03_unknown_variant_rejected : forall vs b known rest, no_index (Byte.to_N b) vs = true ->
  runo (dec (TEnum vs)) known (b :: rest) = OErr rest.
Proof.
  exact (unknown_index_rejected no_index (fun _ _ _ _ => eq_refl)).
Qed.

Theorem C03_nonzero_zero_rejected : forall B known rest, okB B = true ->
  exists r, runo (dec (TNonZero B)) known (le_enc (N.to_nat B) 0 ++ rest) = OErr r.
Proof.
  intros B known rest _. cbn [dec]. rewrite runo_bind, rt_prim by (apply N.neq_0_lt_0, N.pow_nonzero; lia).
  change (0 =? 0) with true. cbn [runo]. eauto.
Qed.

Theorem C03_duration_nanos_rejected : forall s n known rest, length s = 8%nat -> length n = 4%nat ->
  a_billion <= le_dec n -> runo (dec TDuration) known (s ++ n ++ rest) = OErr rest.
Proof.
  intros s n known rest Hs Hn H. cbn [dec]. rewrite rt_read_bind by exact Hs. rewrite rt_read_bind by exact Hn.
  destruct (N.leb_spec a_billion (le_dec n)); [reflexivity|lia].
Qed.

Theorem C03_invalid_utf8_rejected : forall bs known rest, N.of_nat (length bs) < 2 ^ 32 ->
  utf8_valid bs = false ->
  exists r, runo (dec TStr) known (spec_compact (N.of_nat (length bs)) ++ bs ++ rest) = OErr r.
Proof.
  intros bs known rest Hl Hu. cbn [dec]. rewrite runo_bind, rt_compact by (apply okwidth4 || exact Hl).
  rewrite runo_bind, rt_bulk by lia. rewrite Hu. cbn [runo]. eauto.
Qed.

Theorem C03_bits_too_long_rejected : forall B msb n known rest, 2 ^ 29 <= n -> n < 2 ^ 32 ->
  exists r, runo (dec (TBits B msb)) known (spec_compact n ++ rest) = OErr r.
Proof.
  intros B msb n known rest H1 H2. cbn [dec]. rewrite runo_bind, rt_compact by (apply okwidth4 || exact H2).
  destruct (N.ltb_spec (2 ^ 29 - 1) n); [|lia]. cbn [runo]. eauto.
Qed.

(* a count that promises more primitive data than is present is rejected before anything is
   reserved when the length is known, and in the first short chunk otherwise *)
Theorem C03_count_exceeds_input_rejected : forall B n known bs, 1 <= B <= 16 ->
  avail (n * B) bs = false -> oview (runo (bulk_bytes B n) known bs) = OErr [].
Proof. intros B n known bs HB H. rewrite bulk_spec by exact HB. now apply rd_short. Qed.

Example C03_nonvacuous :
  wf_ty (TColl CVec 24 (TColl CMap 368 (TPair (TPrim 1) (TPair TStr TUnit)))) = true /\
  runo (dec (TColl CVec 4 (TPrim 4))) true [x03; xff; xff; xff; xff; x01] = OErr [x01] /\
  runo (dec TStr) true [x08; xc3; x28] = OErr [].
Proof. repeat split; vm_compute; reflexivity. Qed.

(* recursive derived types (Rec.v): with any recursion budget the decoder returns a value, an error
   or runs out of budget (the model's rendering of native stack exhaustion, known finding F7) - it
   never panics; with a depth limit below the budget it does not run out either (C11) *)
Theorem C03_recursive_never_panics : forall d, wf_rdef d = true -> forall F known bs,
  runo (rdec F d) known bs <> OPanic.
Proof. exact rec_never_panics. Qed.

Print Assumptions C03_total.
Print Assumptions C03_consumes_prefix.
Print Assumptions C03_compact_exact.
Print Assumptions C03_bool_tag_rejected.
Print Assumptions C03_option_tag_rejected.
Print Assumptions C03_result_tag_rejected.
Print Assumptions C03_optionbool_tag_rejected.
Print Assumptions C03_unknown_variant_rejected.
Print Assumptions C03_nonzero_zero_rejected.
Print Assumptions C03_duration_nanos_rejected.
Print Assumptions C03_invalid_utf8_rejected.
Print Assumptions C03_bits_too_long_rejected.
Print Assumptions C03_count_exceeds_input_rejected.
Print Assumptions C03_recursive_never_panics.

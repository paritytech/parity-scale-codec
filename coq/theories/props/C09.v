(* C09 — memory requested while decoding is bounded by the input supplied.
   HReal events are the heap reservations the decoder (or the container it fills) makes:
   reserve_exact of each vector chunk, the Box layout, one list node per decoded element, at
   most one tree node per decoded element.  The check compares their sum with the measured
   peak of live heap bytes of the real decode on every case. *)
Require Import Scale.Bytes Scale.Prog Scale.Real
  Scale.Codec Scale.CodecDec Scale.CodecReal.

(* for every well-formed type whose containers store elements occupying at least one input
   byte (pw), EVERY byte string - including counts claiming 2^32-1 elements - known or unknown
   remaining length: the reservations are at most rate * (input length) + allowance, where
   rate and allowance are functions of the type only (element sizes, the 16 KiB preallocation
   window, box sizes per nesting level) *)
Theorem C09_reservations_bounded_by_input : forall t known bs, wf_ty t = true -> pw t = true ->
  real_sum (snd (runt (dec t) known bs)) <= cr t * N.of_nat (length bs) + N.max (cs t) (cf t).
Proof. exact reservations_bounded_by_input. Qed.

(* the finer statement: against the bytes actually read, separately for success and failure *)
Theorem C09_reservations_bounded_by_reads : forall t, wf_ty t = true -> pw t = true ->
  abound (cs t) (cf t) (cr t) (minw t) (dec t).
Proof. exact (proj1 dec_abound_mut). Qed.

(* each single chunk reservation is within the preallocation window *)
Theorem C09_chunk_within_window : forall sz k, sz <= P -> k <= chunk_len sz -> sat_mul k sz <= P.
Proof. exact (fun sz k _ => chunk_bound sz k). Qed.

(* with a known length the bulk path reserves nothing unless the bytes are there *)
Theorem C09_bulk_guarded : forall B n bs, 1 <= B <= 16 -> avail (n * B) bs = false ->
  runt (bulk_bytes B n) true bs = (OErr bs, []).
Proof.
  intros B n bs HB H. unfold bulk_bytes. cbn [need bindp runt]. rewrite H. reflexivity.
Qed.

(* the hypothesis pw is necessary: a zero-wire element type makes the reservation follow the
   claimed count (known finding F4) *)
Theorem C09_zero_wire_refuted :
  exists t bs, wf_ty t = true /\ pw t = false /\ length bs = 2%nat /\
    real_sum (snd (runt (dec t) true bs)) = 8 * 4096 /\
    ~ (real_sum (snd (runt (dec t) true bs)) <= cr t * N.of_nat (length bs) + N.max (cs t) (cf t)).
Proof.
  exists (TColl CVec 8 (TBox 0 TUnit)), [x01; x40].
  assert (E: real_sum (snd (runt (dec (TColl CVec 8 (TBox 0 TUnit))) true [x01; x40])) = 8 * 4096) by (vm_compute; reflexivity).
  rewrite E. repeat split. apply N.lt_nge. reflexivity.
Qed.

Example C09_nonvacuous :
  let t := TColl CVec 24 (TColl CVec 1 (TPrim 1)) in
  wf_ty t = true /\ pw t = true /\ cr t = 25 /\ N.max (cs t) (cf t) = 2 * 16384 /\
  real_sum (snd (runt (dec t) false [x03; xff; xff; xff; xff; x04; x2a])) = 16368 + 1.
Proof. repeat split; vm_compute; reflexivity. Qed.

Print Assumptions C09_reservations_bounded_by_input.
Print Assumptions C09_reservations_bounded_by_reads.
Print Assumptions C09_chunk_within_window.
Print Assumptions C09_bulk_guarded.
Print Assumptions C09_zero_wire_refuted.

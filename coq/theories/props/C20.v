(* C20 — wire format identical in every feature configuration.
   The model of the codec (Codec.v) takes no configuration parameter: the only cfg-gated
   code on the data path is the Output implementation and the Error representation, modelled
   in Cfg.v.  The deciding part of this check is the cross-configuration differential (the
   same corpus built under five feature sets, digests compared line by line, and compared
   with the model); a cfg gate the model does not know about can only be exhibited there. *)
Require Import Scale.Bytes Scale.Cfg.

(* std: Output for any io::Write goes through write_all; a writer accepting any k >= 1 bytes
   per call ends up with exactly the appended bytes - the same as Vec::extend_from_slice *)
Theorem C20_write_all_appends : forall k bytes fuel out, (length bytes <= fuel)%nat ->
  write_all fuel k out bytes = Some (out ++ bytes).
Proof. exact write_all_appends. Qed.

Theorem C20_output_cfg_independent : forall std std' k k' out bytes,
  output_write std k out bytes = output_write std' k' out bytes.
Proof. exact output_cfg_independent. Qed.

Theorem C20_error_description_irrelevant : forall A (a : option A) chain chain' desc,
  verdict (match a with Some x => inl x | None => inr (mk_error chain desc) end) =
  verdict (match a with Some x => inl x | None => inr (mk_error chain' desc) end).
Proof. intros. apply error_cfg_independent. Qed.

Example C20_nonvacuous : write_all 5 2 [x00] [x01; x02; x03; x04; x05] = Some [x00; x01; x02; x03; x04; x05].
Proof. vm_compute. reflexivity. Qed.

Print Assumptions C20_write_all_appends.
Print Assumptions C20_output_cfg_independent.
Print Assumptions C20_error_description_irrelevant.

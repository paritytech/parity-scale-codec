(* C01 — Encoded bytes conform to the SCALE wire format.
   enc_spec is the declarative format (Codec.enc with the shortest-form compact
   integers of CompactSpec); enc_impl is the same traversal with the per-width
   compact code of src/compact.rs.  Pinned statements only. *)
Require Import Scale.Bytes Scale.Eres Scale.Prog Scale.Codec Scale.CodecEnc Scale.CodecDec Scale.CodecRt Scale.CodecMore.

(* the implementation model computes the specification, for every well-formed value of every type *)
Theorem C01_impl_is_spec : forall t v, wf t v = true -> enc_impl t v = enc_spec t v.
Proof. exact enc_impl_is_spec. Qed.

(* the specification is defined on every well-formed value: no panic (element counts below
   2^32, bit counts below 2^29 are part of wf), and decodes back (hence is injective) *)
Theorem C01_spec_defined_and_decodable : forall t v, wf_ty t = true -> wf t v = true ->
  forall bs, enc_spec t v = EOk bs -> forall known rest, runo (dec t) known (bs ++ rest) = OOk (canon t v) rest.
Proof. intros t v Ht Hw bs He known rest. now apply roundtrip. Qed.

(* the deque's two slices and a slice's memory image encode like the element sequence *)
Theorem C01_two_slices : forall c t s0 s1,
  ebind (econcat (map (enc c t) s0)) (fun a => ebind (econcat (map (enc c t) s1)) (fun b => EOk (a ++ b))) =
  econcat (map (enc c t) (s0 ++ s1)).
Proof. exact enc_two_slices. Qed.

Example C01_nonvacuous :
  let t := TPair (TColl CVec 4 (TPrim 4)) (TPair (TOption (TCompact 8)) (TPair TStr TUnit)) in
  let v := VPair (VSeq [VN 1; VN 4294967295]) (VPair (VSome (VN 1073741824)) (VPair (VSeq [VN 104; VN 105]) VUnit)) in
  wf t v = true /\ enc_impl t v = EOk [x08; x01; x00; x00; x00; xff; xff; xff; xff; x01; x03; x00; x00; x00; x40; x08; x68; x69].
Proof. split; vm_compute; reflexivity. Qed.

Print Assumptions C01_impl_is_spec.
Print Assumptions C01_spec_defined_and_decodable.
Print Assumptions C01_two_slices.

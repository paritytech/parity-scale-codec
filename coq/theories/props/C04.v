(* C04 — Compact integers: canonical, minimal, width-compatible bijection.
   Pinned statements only; proofs live in CompactSpec/CompactProofs/CompactTheorems. *)
Require Import Scale.Bytes Scale.Eres Scale.Prog Scale.ProgMore Scale.CompactImpl Scale.CompactSpec
  Scale.CompactProofs Scale.CompactTheorems.

(* the code's encoder (per width, with its casts and shifts) produces the specification form *)
Theorem C04_enc_is_spec : forall B v, okwidth B -> v < 2 ^ (8 * B) ->
  enc_compact B v = EOk (spec_compact v).
Proof. exact enc_compact_spec. Qed.

(* the advertised compact length is the produced length *)
Theorem C04_len_is_length : forall B v, okwidth B -> v < 2 ^ (8 * B) ->
  len_compact B v = N.of_nat (length (spec_compact v)).
Proof. intros B v _. apply len_compact_any. Qed.

(* shortest form: 1 / 2 / 4 bytes by class, else tag + minimal little-endian bytes *)
Theorem C04_spec_length : forall v,
  length (spec_compact v) =
  if v <? 2 ^ 6 then 1%nat else if v <? 2 ^ 14 then 2%nat else if v <? 2 ^ 30 then 4%nat
  else S (byte_len v).
Proof. exact spec_compact_length. Qed.

Theorem C04_big_mode_minimal : forall v, 2 ^ 30 <= v ->
  (4 <= byte_len v)%nat /\ 256 ^ (N.of_nat (byte_len v) - 1) <= v < 256 ^ N.of_nat (byte_len v).
Proof. exact spec_compact_big_minimal. Qed.

(* the code's decoder accepts a byte string iff it begins with exactly the canonical
   form of a value that fits the width, and returns that value and the remainder;
   independently of whether the input knows its length *)
Theorem C04_dec_iff : forall B known bs v rest, okwidth B ->
  (oview (runo (dec_compact B) known bs) = OOk v rest <->
   v < 2 ^ (8 * B) /\ bs = spec_compact v ++ rest).
Proof. exact compact_dec_iff. Qed.

Theorem C04_width_compat : forall B B' v, okwidth B -> okwidth B' ->
  v < 2 ^ (8 * B) -> v < 2 ^ (8 * B') -> enc_compact B v = enc_compact B' v.
Proof. exact compact_width_compat. Qed.

Theorem C04_injective_prefix_free : forall a b ra rb, a < 2 ^ 128 -> b < 2 ^ 128 ->
  spec_compact a ++ ra = spec_compact b ++ rb -> a = b /\ ra = rb.
Proof. exact spec_compact_inj. Qed.

Theorem C04_no_panic : forall B, okwidth B ->
  (forall v, v < 2 ^ (8 * B) -> enc_compact B v <> EPanic) /\
  (forall known bs, runo (dec_compact B) known bs <> OPanic /\ runo (dec_compact B) known bs <> ONoFuel).
Proof.
  intros B HB. split; [intros v Hv; now apply enc_compact_no_panic|intros; now apply compact_dec_no_panic].
Qed.

(* non-vacuity: the hypotheses are met by non-trivial instances *)
Example C04_nonvacuous :
  okwidth 8 /\ 1234567890123 < 2 ^ (8 * 8) /\
  enc_compact 8 1234567890123 = EOk (spec_compact 1234567890123) /\
  length (spec_compact 1234567890123) = 7%nat /\
  oview (runo (dec_compact 8) true (spec_compact 1234567890123 ++ [x2a])) = OOk 1234567890123 [x2a].
Proof. unfold okwidth. repeat split; try (vm_compute; reflexivity); auto. Qed.

Print Assumptions C04_enc_is_spec.
Print Assumptions C04_len_is_length.
Print Assumptions C04_spec_length.
Print Assumptions C04_big_mode_minimal.
Print Assumptions C04_dec_iff.
Print Assumptions C04_width_compat.
Print Assumptions C04_injective_prefix_free.
Print Assumptions C04_no_panic.

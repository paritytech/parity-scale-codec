(* C07 — all encoding entry points and bulk fast paths agree. *)
Require Import Scale.Bytes Scale.Eres Scale.Prog Scale.ProgMore Scale.Chunks Scale.Codec Scale.CodecDec Scale.CodecMore Scale.Entry.

(* the streaming output only ever appends: encode_to into an output holding [out] leaves
   [out ++ encode v]; using_encoded hands over exactly encode v; encoded_size is its length.
   In the model every entry point is a view of the one byte string [enc]: *)
Definition enc_to (t : ty) (v : val) (out : list byte) : eres (list byte) :=
  ebind (enc_impl t v) (fun b => EOk (out ++ b)).
Definition using_enc {R} (t : ty) (v : val) (f : list byte -> R) : eres R :=
  ebind (enc_impl t v) (fun b => EOk (f b)).
Definition enc_size (t : ty) (v : val) : eres nat :=
  ebind (enc_impl t v) (fun b => EOk (length b)).

Theorem C07_entry_points_agree : forall t v b out, enc_impl t v = EOk b ->
  enc_to t v out = EOk (out ++ b) /\ (forall R (f : list byte -> R), using_enc t v f = EOk (f b)) /\ enc_size t v = EOk (length b).
Proof. intros t v b out H. unfold enc_to, using_enc, enc_size. rewrite H. repeat split. Qed.

(* bulk decoding of a primitive vector (16 KiB chunks) = decoding its elements one at a time *)
Theorem C07_bulk_vec_is_elementwise : forall B n known bs, okB B = true ->
  oview (runo (x <- bulk_bytes B n ;; Ret (map VN (words B x))) known bs) =
  oview (runo (x <- rep n (dec_prim B) ;; Ret (map VN x)) known bs).
Proof. exact bulk_vec_is_elementwise. Qed.

(* bulk decoding of a primitive array (one read) = element-wise *)
Theorem C07_bulk_array_is_elementwise : forall B n known bs, okB B = true ->
  oview (runo (x <- read (n * B) ;; Ret (VSeq (map VN (words B x)))) known bs) =
  oview (runo (x <- rep n (dec_prim B) ;; Ret (VSeq (map VN x))) known bs).
Proof. exact bulk_array_is_elementwise. Qed.

(* element-wise decoding in chunks of 16 KiB / size_of = plain repetition *)
Theorem C07_chunked_items_is_repetition : forall esz n c, esz <= max_prealloc ->
  oeq (chunked_items esz n c) (rep n c).
Proof. exact chunked_items_is_rep. Qed.

(* bulk encoding: a deque's two slices (and any split of a slice) encode like the sequence *)
Theorem C07_two_slices : forall c t s0 s1,
  ebind (econcat (map (enc c t) s0)) (fun a => ebind (econcat (map (enc c t) s1)) (fun b => EOk (a ++ b))) =
  econcat (map (enc c t) (s0 ++ s1)).
Proof. exact enc_two_slices. Qed.

Example C07_nonvacuous :
  oview (runo (x <- bulk_bytes 2 3 ;; Ret (map VN (words 2 x))) false [x01; x00; x02; x00; x03; x00; xff]) =
  OOk [VN 1; VN 2; VN 3] [xff].
Proof. vm_compute. reflexivity. Qed.

(* the default methods of the Encode trait (Entry.v: encode_to -> using_encoded -> encode ->
   encode_to, encoded_size -> encode_to): whatever subset of them an impl overrides, if the
   overrides all denote one byte string B then every entry point that answers describes B (the
   size-only one as its length); with at least one of the three byte-producing methods overridden
   every entry point answers within three calls; with none it never does (finding F1) *)
Theorem C07_consistent_overrides_agree : forall i B, consistent i B ->
  (forall fuel e b, resolve fuel i e = Some b -> b = B) /\
  (forall fuel n, resolve_size fuel i = Some n -> n = N.of_nat (List.length B)).
Proof. intros i B H. split; [exact (consistent_entry_points_agree i B H)|exact (consistent_size_agrees i B H)]. Qed.

Theorem C07_entry_points_terminate : forall i e fuel,
  overrides_some i = true -> (3 <= fuel)%nat -> resolve fuel i e <> None.
Proof. exact entry_points_terminate. Qed.

Theorem C07_all_default_diverges : forall i e, overrides_some i = false -> forall fuel, resolve fuel i e = None.
Proof. exact all_default_diverges. Qed.

Example C07_entry_nonvacuous :
  let i := {| o_encode_to := None; o_encode := None; o_using := Some [x01; x02]; o_size := None |} in
  consistent i [x01; x02] /\ resolve 3 i EEncode = Some [x01; x02] /\ resolve_size 3 i = Some 2.
Proof.
  cbv zeta. split; [|split; vm_compute; reflexivity].
  unfold consistent. cbn. repeat split; intros; try discriminate. congruence.
Qed.

Print Assumptions C07_entry_points_agree.
Print Assumptions C07_bulk_vec_is_elementwise.
Print Assumptions C07_bulk_array_is_elementwise.
Print Assumptions C07_chunked_items_is_repetition.
Print Assumptions C07_two_slices.
Print Assumptions C07_consistent_overrides_agree.
Print Assumptions C07_entry_points_terminate.
Print Assumptions C07_all_default_diverges.

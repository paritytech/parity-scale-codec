(* C12 — memory-limited decoding has an exact threshold U, the tracked usage. *)
Require Import Scale.Bytes Scale.Eres Scale.Prog Scale.Monitors Scale.Codec Scale.CodecDec Scale.CodecRt Scale.Mem Scale.Rec Scale.RecRt.

(* for EVERY decoder program, input and limit L, with U the saturating sum of the sizes the
   decode announces: L > U is transparent; if anything was announced (in particular if
   U > 0) L <= U fails *)
Theorem C12_threshold : forall A (p : prog A) known bs L,
  let '(o, evs) := runt p known bs in
  let U := used_after 0 evs in
  (U < L -> exists u, run (memmon L) p known bs 0 = lift_out o u) /\
  (has_alloc evs = true -> L <= U -> exists u, run (memmon L) p known bs 0 = RErr u) /\
  (0 < U -> has_alloc evs = true).
Proof. exact mem_limit_threshold. Qed.

(* what the wrapper reports with an unlimited budget is U *)
Theorem C12_used_mem_is_U : forall A (p : prog A) known bs,
  let '(o, evs) := runt p known bs in
  used_after 0 evs < usize_max ->
  run (memmon usize_max) p known bs 0 = lift_out o (used_after 0 evs).
Proof. exact mem_used_is_U. Qed.

Theorem C12_transparent : forall A (p : prog A) known bs L,
  match run (memmon L) p known bs 0 with
  | ROk v rest _ => runo p known bs = OOk v rest
  | RErr _ => True
  | RPanic => runo p known bs = OPanic
  | RNoFuel => runo p known bs = ONoFuel
  end.
Proof. intros. apply run_transparent. Qed.

(* the B-tree estimate covers at least half of the entries' memory: 2 * estimate >= n * entry,
   given the leaf node holds 11 entries *)
Theorem C12_btree_estimate_half : forall leaf entry n, 11 * entry <= leaf -> leaf + 96 <= 2 ^ 31 -> n < 2 ^ 32 ->
  n * entry <= 2 * btree_mem leaf n.
Proof. exact btree_estimate_half. Qed.

Example C12_nonvacuous :
  let t := TPair (TColl CVec 4 (TPrim 4)) (TPair (TBox 8 (TPrim 8)) TUnit) in
  let bs := [x08; x01; x00; x00; x00; x02; x00; x00; x00; x09; x00; x00; x00; x00; x00; x00; x00] in
  used_after 0 (snd (runt (dec t) true bs)) = 16 /\
  run (memmon 17) (dec t) true bs 0 = ROk (VPair (VSeq [VN 1; VN 2]) (VPair (VN 9) VUnit)) [] 16 /\
  run (memmon 16) (dec t) true bs 0 = RErr 16.
Proof. repeat split; vm_compute; reflexivity. Qed.

(* value side: for every bit-free universe type and well-formed value, the sizes announced while
   decoding its encoding sum to the closed form [ann]: count x element size per sequence, node size
   per list element, the B-tree estimate per map/set, the boxed size per Box/Rc/Arc, the length per
   string, summed over the nesting; zero for values with none of these *)
Theorem C12_tracked_usage_closed_form : forall t v bs known rest,
  wf_ty t = true -> wf t v = true -> enc_spec t v = EOk bs -> ann t v <= usize_max ->
  used_after 0 (snd (runt (dec t) known (bs ++ rest))) = ann t v.
Proof. exact tracked_usage_is_closed_form. Qed.

(* hence the threshold of memory-limited decoding of an encoding is that closed form *)
Theorem C12_limit_on_encodings : forall t v bs known rest L,
  wf_ty t = true -> wf t v = true -> enc_spec t v = EOk bs -> ann t v <= usize_max ->
  (ann t v < L -> exists u, run (memmon L) (dec t) known (bs ++ rest) 0 = ROk (canon t v) rest u) /\
  (0 < ann t v -> L <= ann t v -> exists u, run (memmon L) (dec t) known (bs ++ rest) 0 = RErr u).
Proof. exact mem_limit_on_encodings. Qed.

(* and it covers the heap payload of the value: exactly for sequences, lists, boxes and strings,
   within a factor of two for maps and sets (an entry being at most a leaf node over its 11 slots) *)
Theorem C12_payload_covered : forall t, wf_ty t = true -> forall v, wf t v = true -> payload t v <= 2 * ann t v.
Proof. intros t Ht v Hw. now apply payload_within_twice_announced. Qed.

Example C12_value_nonvacuous :
  let t := TPair (TColl CVec 16 (TBox 8 (TPrim 8))) (TPair (TColl CMap 192 (TPair (TPrim 1) (TPair (TPrim 1) TUnit))) (TPair TStr TUnit)) in
  let v := VPair (VSeq [VN 1; VN 2]) (VPair (VSeq [VPair (VN 1) (VPair (VN 7) VUnit)]) (VPair (VSeq [VN 104; VN 105]) VUnit)) in
  wf_ty t = true /\ wf t v = true /\
  (exists bs, enc_spec t v = EOk bs) /\ ann t v = 2 * 16 + 2 * 8 + 192 + 2 /\ payload t v = 2 * 16 + 2 * 8 + 17 + 2.
Proof. repeat split; try (vm_compute; reflexivity). eexists. vm_compute. reflexivity. Qed.

(* recursive derived types: the same closed form (boxed size per Box<Self> / Option<Box<Self>>,
   count x element size per Vec<Self>, plus the universe-typed fields, summed over the recursion)
   is the threshold of memory-limited decoding of the encoding of a recursive value *)
Theorem C12_recursive_limit_on_encodings : forall d F v bs known rest L,
  wf_rdef d = true -> ridx_ok d = true -> renc F d v = EOk bs -> rann F d v <= usize_max ->
  (rann F d v < L -> exists u, run (memmon L) (rdec F d) known (bs ++ rest) 0 = ROk (rcanon F d v) rest u) /\
  (0 < rann F d v -> L <= rann F d v -> exists u, run (memmon L) (rdec F d) known (bs ++ rest) 0 = RErr u).
Proof. exact rec_mem_limit_on_encodings. Qed.

Print Assumptions C12_threshold.
Print Assumptions C12_used_mem_is_U.
Print Assumptions C12_transparent.
Print Assumptions C12_btree_estimate_half.
Print Assumptions C12_tracked_usage_closed_form.
Print Assumptions C12_limit_on_encodings.
Print Assumptions C12_payload_covered.
Print Assumptions C12_recursive_limit_on_encodings.

(* C08 — decoding is independent of the Input implementation.
   Inputs are modelled by their content and by whether they report their remaining
   length; wrappers as monitors over the decoder's requests. *)
Require Import Scale.Bytes Scale.Prog Scale.ProgMore Scale.Monitors Scale.Codec Scale.CodecDec .

(* same verdict, value and consumption whether or not the input knows its length
   (slice / BytesCursor vs IoReader / short-read readers), for every type and byte string *)
Theorem C08_known_length_irrelevant : forall t bs, wf_ty t = true ->
  oview (runo (dec t) true bs) = oview (runo (dec t) false bs).
Proof. exact dec_known_irrelevant. Qed.

(* any wrapper (any stack of wrappers, as one monitor) whose limits the decode does not
   reach returns exactly the unwrapped result *)
Theorem C08_nonbinding_wrappers_invisible : forall (m : monitor) A (p : prog A) known bs (s : mst m),
  snd (feed m s (snd (runt p known bs))) = true ->
  exists s', run m p known bs s = lift_out (runo p known bs) s'.
Proof. exact nonbinding_stack_transparent. Qed.

(* the counting wrapper never rejects; a stack accepts iff each layer accepts *)
Theorem C08_counted_never_rejects : forall evs c, c <= u64max -> snd (feed counted c evs) = true.
Proof. intros evs c H. now rewrite counted_feed. Qed.

Theorem C08_stack_accepts : forall (i o : monitor) evs (si : mst i) (so : mst o),
  snd (feed i si evs) = true -> snd (feed o so evs) = true ->
  snd (feed (mstack i o) (si, so) evs) = true.
Proof. exact feed_mstack_accepts. Qed.

(* depth and memory wrappers accept whenever their limit exceeds what the trace reaches *)
Theorem C08_depth_accepts : forall L evs d, d <= L -> max_depth d evs <= L -> snd (feed (depthmon L) d evs) = true.
Proof. intros L evs d Hd H. rewrite depth_feed_iff by exact Hd. now apply N.leb_le. Qed.

Theorem C08_mem_accepts : forall L evs u, u <= usize_max -> used_after u evs < L -> snd (feed (memmon L) u evs) = true.
Proof. intros L evs u Hu H. rewrite mem_feed_iff. apply orb_true_iff. right. now apply N.ltb_lt. Qed.

(* a successful decode does not look at what follows the value *)
Theorem C08_locality : forall A (p : prog A) known x bs v r,
  runo p known bs = OOk v r -> runo p known (bs ++ x) = OOk v (r ++ x).
Proof. exact runo_extend. Qed.

Example C08_nonvacuous :
  wf_ty (TColl CVec 4 (TPrim 4)) = true /\
  runo (dec (TColl CVec 4 (TPrim 4))) true [x10; x01] = OErr [x01] /\
  runo (dec (TColl CVec 4 (TPrim 4))) false [x10; x01] = OErr [x01].
Proof. repeat split; vm_compute; reflexivity. Qed.

Print Assumptions C08_known_length_irrelevant.
Print Assumptions C08_nonbinding_wrappers_invisible.
Print Assumptions C08_counted_never_rejects.
Print Assumptions C08_stack_accepts.
Print Assumptions C08_depth_accepts.
Print Assumptions C08_mem_accepts.
Print Assumptions C08_locality.

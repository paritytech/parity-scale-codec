(* C05 — derived codecs implement the declared layout for every type definition.
   The descriptor of a definition (Codec.v header): the non-skipped fields in declaration
   order, each in its selected representation (compact / encoded_as fields carry the type they
   are encoded as), as a right-nested pair ending in TUnit; for enums one (effective index,
   payload) entry per non-skipped variant.  The check derives that descriptor from generated
   definitions, compiles them against /repo and compares the real derived codec with the model
   on values, mutated inputs and every possible first byte. *)
Require Import Scale.Bytes Scale.Eres Scale.Prog Scale.Codec Scale.CodecDec Scale.CodecRt
  Scale.CodecLike Scale.Derive.

(* encoding of a struct = concatenation of its non-skipped fields' encodings in declaration order *)
Theorem C05_struct_layout : forall c a b x y,
  enc c (TPair a b) (VPair x y) = eapp (enc c a x) (enc c b y).
Proof. reflexivity. Qed.

(* an enum value = one byte holding the variant's index, then the payload *)
Theorem C05_enum_layout : forall c i t r v, i < 256 ->
  enc c (TEnum (VsCons i t r)) (VVar 0 v) = eapp (EOk [byte_of i]) (enc c t v).
Proof. intros c i t r v H. cbn [enc enc_vars]. apply N.ltb_lt in H. now rewrite H. Qed.
Theorem C05_enum_layout_later : forall c i t r k v,
  enc c (TEnum (VsCons i t r)) (VVar (S k) v) = enc c (TEnum r) (VVar k v).
Proof. reflexivity. Qed.

(* the single-non-skipped-field forwarder and the general path agree: a one-field struct
   encodes like its field *)
Theorem C05_single_field_forwarding : forall c t v, enc c (TPair t TUnit) (VPair v VUnit) = enc c t v.
Proof. exact like_one_tuple. Qed.

(* decoding inverts the layout (skipped fields are absent from the descriptor: the decoder
   fills them with Default) - the round trip over every accepted definition whose indices are
   pairwise distinct and below 256, which derive_accepts guarantees *)
Theorem C05_decode_inverts : forall t v bs known rest,
  wf_ty t = true -> wf t v = true -> enc_spec t v = EOk bs ->
  runo (dec t) known (bs ++ rest) = OOk (canon t v) rest.
Proof. exact roundtrip. Qed.
Theorem C05_accepted_enums_have_valid_indices : forall vs payloads, derive_accepts (DEnum vs) = true ->
  length payloads = length (eff_indices 0 vs) -> idx_ok (mk_variants (eff_indices 0 vs) payloads) = true.
Proof. exact accepted_indices_ok. Qed.

(* an index byte naming no variant is rejected *)
Fixpoint no_index (b : N) (vs : variants) : bool :=
  match vs with VsNil => true | VsCons i _ r => negb (b =? i mod 256) && no_index b r end.
Theorem C05_unknown_index_rejected : forall vs b known rest, no_index (Byte.to_N b) vs = true ->
  runo (dec (TEnum vs)) known (b :: rest) = OErr rest.
Proof.
  exact (unknown_index_rejected no_index (fun _ _ _ _ => eq_refl)).
Qed.

(* a skipped variant is not in the descriptor: the derived encoder writes nothing for it and
   returns (checked on the implementation by encoding such values in child processes) *)

Example C05_nonvacuous :
  enc_spec (TEnum (VsCons 0 TUnit (VsCons 9 (TPair (TCompact 2) (TPair TBool TUnit)) VsNil))) (VVar 1 (VPair (VN 300) (VPair (VBool true) VUnit)))
  = EOk [x09; xb1; x04; x01].
Proof. vm_compute. reflexivity. Qed.

Print Assumptions C05_struct_layout.
Print Assumptions C05_enum_layout.
Print Assumptions C05_enum_layout_later.
Print Assumptions C05_single_field_forwarding.
Print Assumptions C05_decode_inverts.
Print Assumptions C05_accepted_enums_have_valid_indices.
Print Assumptions C05_unknown_index_rejected.

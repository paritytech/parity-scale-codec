(* C16 — types declared to encode alike really do. One theorem per impl family; the check
   maps every `impl ... EncodeLike<..> for ..` header found in /repo/src to one of them. *)
Require Import Scale.Bytes Scale.Eres Scale.Prog Scale.Codec Scale.CodecEnc Scale.CodecDec Scale.CodecLike.

Theorem C16_holders : forall c sz t, like c (TBox sz t) t.
Proof. exact like_box. Qed.
Theorem C16_holders_nested : forall c sz sz' t u, like c t u -> like c (TBox sz t) (TBox sz' u).
Proof. exact like_box_box. Qed.
Theorem C16_sequences : forall c k k' sz sz' t u, like c t u -> like c (TColl k sz t) (TColl k' sz' u).
Proof. exact like_coll. Qed.
Theorem C16_string_bytes : forall c sz l bs, bytes_of_vals l = Some bs ->
  enc c TStr (VSeq l) = enc c (TColl CVec sz (TPrim 1)) (VSeq l).
Proof. exact like_str_bytes. Qed.
Theorem C16_option : forall c t u, like c t u -> like c (TOption t) (TOption u).
Proof. exact like_option. Qed.
Theorem C16_result : forall c t u e f, like c t u -> like c e f -> like c (TResult t e) (TResult u f).
Proof. exact like_result. Qed.
Theorem C16_array : forall c n t u, like c t u -> like c (TArray n t) (TArray n u).
Proof. exact like_array. Qed.
Theorem C16_tuple : forall c a b a' b', like c a a' -> like c b b' -> like c (TPair a b) (TPair a' b').
Proof. exact like_pair. Qed.
Theorem C16_one_tuple : forall c t v, enc c (TPair t TUnit) (VPair v VUnit) = enc c t v.
Proof. exact like_one_tuple. Qed.
Theorem C16_decodes_as_target : forall a b v bs known rest,
  like spec_c a b -> wf_ty b = true -> wf b v = true -> enc_spec a v = EOk bs ->
  runo (dec b) known (bs ++ rest) = OOk (canon b v) rest.
Proof. exact like_decodes. Qed.

Example C16_nonvacuous :
  enc_spec (TColl CList 24 (TBox 2 (TPrim 2))) (VSeq [VN 1; VN 2]) = enc_spec (TColl CVec 2 (TPrim 2)) (VSeq [VN 1; VN 2]) /\
  enc_spec (TColl CVec 2 (TPrim 2)) (VSeq [VN 1; VN 2]) = EOk [x08; x01; x00; x02; x00].
Proof. split; vm_compute; reflexivity. Qed.

Print Assumptions C16_holders.
Print Assumptions C16_holders_nested.
Print Assumptions C16_sequences.
Print Assumptions C16_string_bytes.
Print Assumptions C16_option.
Print Assumptions C16_result.
Print Assumptions C16_array.
Print Assumptions C16_tuple.
Print Assumptions C16_one_tuple.
Print Assumptions C16_decodes_as_target.

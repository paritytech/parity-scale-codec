(* C15 — appending to an encoded sequence equals re-encoding the whole.
   Items are abstract (n items whose encodings concatenate to p): the statements hold for
   any item type, alias form and zero-sized items. *)
Require Import Scale.Bytes Scale.Prog Scale.CompactSpec
  Scale.Append.

(* appending n items to the encoding of a sequence of c items (body = its items' bytes):
   the new count in canonical form, the old items, the new items - across every
   prefix-width change (both branches of the code: in-place rewrite and reallocation) *)
Theorem C15_append_spec : forall c n body p, c + n <= u32max ->
  append (spec_compact c ++ body) n p = AOk (spec_compact (c + n) ++ body ++ p).
Proof. exact append_spec. Qed.

Theorem C15_append_new : forall n p,
  append [] n p = if n <=? u32max then AOk (spec_compact n ++ p) else AErr.
Proof. exact append_new. Qed.

Theorem C15_overflow_is_error : forall c n body p, c <= u32max -> u32max < c + n ->
  append (spec_compact c ++ body) n p = AErr.
Proof. exact append_overflow_err. Qed.

Theorem C15_bad_prefix_is_error : forall vec n p, vec <> [] ->
  (forall c body, c <= u32max -> vec <> spec_compact c ++ body) -> append vec n p = AErr.
Proof. exact append_bad_prefix_err. Qed.

Theorem C15_no_panic : forall vec n p, append vec n p <> APanic.
Proof. exact append_no_panic. Qed.

(* every history of appends, from an encoded sequence or from empty input *)
Theorem C15_history : forall ops c body, c + total ops <= u32max ->
  append_history (AOk (spec_compact c ++ body)) ops = AOk (spec_compact (c + total ops) ++ body ++ payload ops).
Proof. exact append_history_spec. Qed.

Theorem C15_history_from_empty : forall n p ops, n + total ops <= u32max ->
  append_history (append [] n p) ops = AOk (spec_compact (n + total ops) ++ p ++ payload ops).
Proof. exact append_history_from_empty. Qed.

Example C15_nonvacuous :
  append [xfc; x01; x02] 1 [x09] = AOk [x01; x01; x01; x02; x09] /\
  append [x04] 4294967296 [] = AErr /\
  append [x04] 4294967295 [] = AErr /\
  append [x04] 4294967294 [] = AOk [x03; xff; xff; xff; xff] /\
  append [xff] 1 [x00] = AErr.
Proof. repeat split; vm_compute; reflexivity. Qed.

Print Assumptions C15_append_spec.
Print Assumptions C15_append_new.
Print Assumptions C15_overflow_is_error.
Print Assumptions C15_bad_prefix_is_error.
Print Assumptions C15_no_panic.
Print Assumptions C15_history.
Print Assumptions C15_history_from_empty.

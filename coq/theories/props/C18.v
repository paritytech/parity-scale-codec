(* C18 — length peeking and skipping agree with full decoding. *)
Require Import Scale.Bytes Scale.Eres Scale.Prog Scale.Codec Scale.CodecDec Scale.CodecMore.

(* for every well-formed type and every byte string, known or unknown input length: skip
   succeeds exactly when decode succeeds and leaves exactly the same remaining input
   (the only non-default skip, arrays with a fixed element size, goes element by element
   while the array decoder may read in bulk) *)
Theorem C18_skip_is_decode : forall t known, wf_ty t = true -> forall bs,
  forget (runo (skip t) known bs) = forget (runo (dec t) known bs).
Proof. exact skip_is_decode. Qed.

(* reading only the count of an encoded collection returns its true length *)
Theorem C18_len_peek : forall k sz t l bs rest, wf (TColl k sz t) (VSeq l) = true ->
  enc_spec (TColl k sz t) (VSeq l) = EOk bs -> peek_len (bs ++ rest) = OOk (N.of_nat (length l)) [].
Proof. exact peek_len_correct. Qed.

(* ... also through a tuple that starts with one *)
Theorem C18_len_peek_tuple : forall k sz t l b vb bs rest,
  wf (TPair (TColl k sz t) b) (VPair (VSeq l) vb) = true ->
  enc_spec (TPair (TColl k sz t) b) (VPair (VSeq l) vb) = EOk bs -> peek_len (bs ++ rest) = OOk (N.of_nat (length l)) [].
Proof. exact peek_len_tuple. Qed.

Example C18_nonvacuous :
  forget (runo (skip (TArray 2 (TArray 2 TBool))) true [x01; x00; x02; x01]) = OErr [] /\
  forget (runo (skip (TArray 2 (TPrim 2))) false [x01; x00; x02; x01; xff]) = OOk tt [xff] /\
  peek_len [x0c; x01; x02; x03] = OOk 3 [].
Proof. repeat split; vm_compute; reflexivity. Qed.

Print Assumptions C18_skip_is_decode.
Print Assumptions C18_len_peek.
Print Assumptions C18_len_peek_tuple.

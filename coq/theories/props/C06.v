(* C06 — encoding depends only on logical content.
   In the model a value IS its logical content (the element sequence in iteration order,
   the bits of a bit sequence, the pointee of a holder); what can vary in memory is how a
   container presents that content to the encoder.  The theorems cover those presentations. *)
Require Import Scale.Bytes Scale.Eres Scale.Codec Scale.CodecRt Scale.CodecMore Scale.CodecLike.

(* a deque presents its content as two slices (every ring-buffer state is some split of the
   element sequence): encoding the two slices one after the other = encoding the sequence *)
Theorem C06_deque_any_split : forall c t s0 s1,
  ebind (econcat (map (enc c t) s0)) (fun a => ebind (econcat (map (enc c t) s1)) (fun b => EOk (a ++ b))) =
  econcat (map (enc c t) (s0 ++ s1)).
Proof. exact enc_two_slices. Qed.

(* the container kind and the element size recorded in the descriptor (all that distinguishes
   Vec, VecDeque, slices, lists, heaps, sets, maps on the encode side) do not matter *)
Theorem C06_container_kind_irrelevant : forall c k k' sz sz' t l,
  enc c (TColl k sz t) (VSeq l) = enc c (TColl k' sz' t) (VSeq l).
Proof. intros. apply like_coll. apply like_refl. Qed.

(* a set/map value that is strictly sorted is its own canonical form: building it again
   from its entries in that order changes nothing *)
Theorem C06_sorted_canonical : forall keyed l, strictly_sorted keyed l = true -> canon_set keyed l = l.
Proof. exact canon_set_id. Qed.

(* holders are transparent *)
Theorem C06_holder_transparent : forall c sz t v, enc c (TBox sz t) v = enc c t v.
Proof. intros. reflexivity. Qed.

(* determinism: the encoder is a function of (type, logical content) - two equal contents
   encode to the same bytes, and repeated encoding yields the same bytes *)
Theorem C06_deterministic : forall c t v v', v = v' -> enc c t v = enc c t v'.
Proof. intros c t v v' ->. reflexivity. Qed.

(* bit sequences: the words depend only on the bits (a slice at any offset of any backing
   store is described by its bits): zero-padded words of the chunks of the bits *)
Theorem C06_bits_content_only : forall c B msb l l', l = l' -> enc c (TBits B msb) (VBits l) = enc c (TBits B msb) (VBits l').
Proof. intros c B msb l l' ->. reflexivity. Qed.

Example C06_nonvacuous :
  enc_spec (TColl CVec 1 (TPrim 1)) (VSeq ([VN 1; VN 2] ++ [VN 3])) = EOk [x0c; x01; x02; x03] /\
  enc_spec (TBits 1 true) (VBits [true; false; true]) = EOk [x0c; xa0] /\
  enc_spec (TBits 1 false) (VBits [true; false; true]) = EOk [x0c; x05].
Proof. repeat split; vm_compute; reflexivity. Qed.

Print Assumptions C06_deque_any_split.
Print Assumptions C06_container_kind_irrelevant.
Print Assumptions C06_sorted_canonical.
Print Assumptions C06_holder_transparent.
Print Assumptions C06_deterministic.
Print Assumptions C06_bits_content_only.

(* The per-width compact code of src/compact.rs (CompactImpl.v) computes the
   specification (CompactSpec.v). *)
Require Import Scale.Bytes Scale.Eres Scale.Prog Scale.ProgFacts Scale.ProgMore Scale.CompactImpl Scale.CompactSpec.

Definition okwidth (B : N) : Prop := B = 1 \/ B = 2 \/ B = 4 \/ B = 8 \/ B = 16.
Lemma okwidth_le16 B : okwidth B -> 1 <= B <= 16.
Proof. unfold okwidth. lia. Qed.

(* `(x as uN) << 2` loses nothing when 4 * x still fits *)
Lemma shl2_wrap bits v : 4 * v < 2 ^ bits -> wrap bits (N.shiftl (wrap bits v) 2) = 4 * v.
Proof. intros H. rewrite (wrap_small bits v), shl2 by lia. now apply wrap_small. Qed.

Lemma mode0_spec v : v < 2^6 -> mode0 v = spec_compact v.
Proof. intros H. unfold mode0. now rewrite shl2_wrap, spec_compact_0 by lia. Qed.

Lemma mode1_spec v : 2^6 <= v < 2^14 -> mode1 v = spec_compact v.
Proof. intros H. unfold mode1. now rewrite shl2_wrap, lor_low, spec_compact_1 by lia. Qed.

Lemma mode2_spec v : 2^14 <= v < 2^30 -> mode2 v = spec_compact v.
Proof. intros H. unfold mode2. now rewrite shl2_wrap, lor_low, spec_compact_2 by lia. Qed.

Lemma enc_c8_spec v : v < 2^8 -> enc_c8 v = EOk (spec_compact v).
Proof.
  intros Hv. unfold enc_c8.
  destruct (N.leb_spec v 63); [now rewrite mode0_spec by lia|].
  now rewrite mode1_spec by lia.
Qed.

Lemma enc_c16_spec v : v < 2^16 -> enc_c16 v = EOk (spec_compact v).
Proof.
  intros Hv. unfold enc_c16.
  destruct (N.leb_spec v 63); [now rewrite mode0_spec by lia|].
  destruct (N.leb_spec v 16383); [now rewrite mode1_spec by lia|].
  now rewrite mode2_spec by lia.
Qed.

Lemma byte_len_u32 v : 2^30 <= v < 2^32 -> byte_len v = 4%nat.
Proof. intros H. apply (byte_len_unique v 4). change (4 - 1) with 3. lia. Qed.

Lemma enc_c32_spec v : v < 2^32 -> enc_c32 v = EOk (spec_compact v).
Proof.
  intros Hv. unfold enc_c32.
  destruct (N.leb_spec v 63); [now rewrite mode0_spec by lia|].
  destruct (N.leb_spec v 16383); [now rewrite mode1_spec by lia|].
  destruct (N.leb_spec v 1073741823); [now rewrite mode2_spec by lia|].
  now rewrite spec_compact_3, byte_len_u32 by lia.
Qed.

Lemma push_loop_spec : forall n v, push_loop n v = (le_enc n v, v / 256 ^ N.of_nat n).
Proof.
  induction n as [|n IH]; intros v; cbn [push_loop le_enc].
  - change (256 ^ N.of_nat 0) with 1. now rewrite N.div_1_r.
  - rewrite IH, shr8. unfold wrap. change (2^8) with 256. now rewrite byte_of_mod, div_pow256_S.
Qed.

Lemma bytes_needed_spec B v : N.size v <= 8 * B ->
  B - leading_zeros B v / 8 = N.of_nat (byte_len v).
Proof.
  intros H. unfold leading_zeros, byte_len. rewrite N2Nat.id.
  set (s := N.size v) in *. clearbody s. lia.
Qed.

(* any width whose byte count fits the six bits the prefix byte has for it *)
Lemma enc_cbig_spec B v : B <= 67 -> v < 2 ^ (8 * B) -> enc_cbig B v = EOk (spec_compact v).
Proof.
  intros HB Hv. unfold enc_cbig.
  destruct (N.leb_spec v 63); [now rewrite mode0_spec by lia|].
  destruct (N.leb_spec v 16383); [now rewrite mode1_spec by lia|].
  destruct (N.leb_spec v 1073741823) as [|H30]; [now rewrite mode2_spec by lia|].
  rewrite spec_compact_3, bytes_needed_spec by (lia || now apply size_le_bits).
  pose proof (byte_len_big v ltac:(lia)) as H4.
  assert (Hn: N.of_nat (byte_len v) <= B) by (apply byte_len_le_iff; now rewrite pow256).
  set (n := byte_len v) in *. clear H30.
  destruct (N.ltb_spec (N.of_nat n) 4); [lia|].
  rewrite Nat2N.id, push_loop_spec, N.div_small by (apply byte_len_le_iff; reflexivity).
  change (0 =? 0) with true. cbv iota.
  rewrite shl2, (wrap_small 32), (wrap_small 8) by lia.
  do 3 f_equal. lia.
Qed.

Theorem enc_compact_le67 B v : B <= 67 -> v < 2 ^ (8 * B) -> enc_compact B v = EOk (spec_compact v).
Proof.
  intros HB Hv. unfold enc_compact.
  destruct (N.eqb_spec B 1) as [->|_]; [now apply enc_c8_spec|].
  destruct (N.eqb_spec B 2) as [->|_]; [now apply enc_c16_spec|].
  destruct (N.eqb_spec B 4) as [->|_]; [now apply enc_c32_spec|].
  now apply enc_cbig_spec.
Qed.

Theorem enc_compact_spec B v : okwidth B -> v < 2 ^ (8 * B) ->
  enc_compact B v = EOk (spec_compact v).
Proof. intros HB. apply enc_compact_le67. apply okwidth_le16 in HB. lia. Qed.

Theorem len_compact_any B v : v < 2 ^ (8 * B) -> len_compact B v = N.of_nat (length (spec_compact v)).
Proof.
  intros Hv. unfold len_compact.
  destruct (N.leb_spec v 63); [now rewrite spec_compact_0 by lia|].
  destruct (N.eqb_spec B 1) as [->|_]; [now rewrite spec_compact_1 by lia|].
  destruct (N.leb_spec v 16383); [now rewrite spec_compact_1 by lia|].
  destruct (N.eqb_spec B 2) as [->|_]; [now rewrite spec_compact_2 by lia|].
  destruct (N.leb_spec v 1073741823); [now rewrite spec_compact_2 by lia|].
  rewrite spec_compact_3 by lia. cbn [length]. rewrite le_enc_len.
  destruct (N.eqb_spec B 4) as [->|_]; [now rewrite byte_len_u32 by lia|].
  rewrite bytes_needed_spec by now apply size_le_bits. lia.
Qed.

Definition of_opt {A} (x : option (A * list byte)) : out A :=
  match x with Some (a, r) => OOk a r | None => OErr [] end.

Lemma of_opt_ok A (x : option (A * list byte)) a r : of_opt x = OOk a r <-> x = Some (a, r).
Proof. destruct x as [[a' r']|]; cbn [of_opt]; split; congruence. Qed.

Lemma of_opt_no_panic A (o : out A) x : oview o = of_opt x -> o <> OPanic /\ o <> ONoFuel.
Proof. destruct o, x as [[a' r']|]; cbn [oview of_opt]; split; congruence. Qed.

(* every arm of the decoders but mode 0 reads k bytes, computes a value and checks
   its range: that is a mode of sdec when, on k bytes, the check is that of the mode *)
Lemma read_dec W lo (f : list byte -> N) (c : list byte -> prog N) k known bs :
  (forall b, length b = N.to_nat k ->
     c b = if (lo <=? f b) && (f b <? 2 ^ W) then Ret (f b) else Fail) ->
  oview (runo (b <- read k ;; c b) known bs) = of_opt (sdec_mode W lo f (N.to_nat k) bs).
Proof.
  intros Hc. rewrite runo_read_bind. unfold sdec_mode.
  destruct (take (N.to_nat k) bs) as [[b r]|] eqn:E; [|reflexivity].
  apply take_inv in E as [_ Hb]. rewrite (Hc b Hb). now destruct (_ && _).
Qed.

Lemma fail_dec W lo f k known bs : 2 ^ W <= lo ->
  oview (runo Fail known bs) = of_opt (sdec_mode W lo f k bs).
Proof. intros H. now rewrite sdec_mode_none. Qed.

(* modes 1 and 2: g is the range check of the width at hand *)
Lemma prefixed_dec W lo p k (g : N -> bool) known bs :
  (forall x, x < 2 ^ (8 * k + 6) -> g x = (lo <=? x) && (x <? 2 ^ W)) ->
  oview (runo (x <- prefixed p k ;; if g x then Ret x else Fail) known bs) =
  of_opt (sdec_mode W lo (tagged p) (N.to_nat k) bs).
Proof.
  intros Hg. apply read_dec. intros b Hb. cbn [bindp]. rewrite shr2. fold (tagged p b).
  rewrite Hg; [reflexivity|]. rewrite <- (N2Nat.id k), <- Hb. apply tagged_bound.
Qed.

Lemma mode1_dec W p known bs : 14 <= W ->
  oview (runo (x <- prefixed p 1 ;; if (63 <? x) && (x <=? 16383) then Ret x else Fail) known bs) =
  of_opt (sdec_mode W (2 ^ 6) (tagged p) 1 bs).
Proof.
  intros HW. assert (2 ^ 14 <= 2 ^ W) by (apply N.pow_le_mono_r; lia).
  apply (prefixed_dec W _ p 1). intros x Hx. lia.
Qed.

Lemma mode2_dec W p known bs : 30 <= W ->
  oview (runo (x <- prefixed p 3 ;; if (16383 <? x) && (x <=? N.shiftr u32max 2) then Ret x else Fail) known bs) =
  of_opt (sdec_mode W (2 ^ 14) (tagged p) 3 bs).
Proof.
  intros HW. assert (2 ^ 30 <= 2 ^ W) by (apply N.pow_le_mono_r; lia).
  apply (prefixed_dec W _ p 3). intros x Hx. change (N.shiftr u32max 2) with (2 ^ 30 - 1). lia.
Qed.

(* mode 3 with n bytes; lo is the constant the code compares with *)
Lemma big_read_dec W n (lo : N) known bs :
  8 * n <= W -> N.succ lo = N.max (2 ^ 30) (256 ^ (n - 1)) ->
  oview (runo (b <- read n ;; let x := le_dec b in if lo <? x then Ret x else Fail) known bs) =
  of_opt (sdec_mode W (N.max (2 ^ 30) (256 ^ (n - 1))) le_dec (N.to_nat n) bs).
Proof.
  intros HW <-. apply read_dec. intros b Hb. cbv zeta.
  pose proof (le_dec_bound b) as Hx. rewrite Hb, N2Nat.id, pow256 in Hx.
  assert (2 ^ (8 * n) <= 2 ^ W) by (apply N.pow_le_mono_r; lia).
  now replace ((N.succ lo <=? le_dec b) && (le_dec b <? 2 ^ W)) with (lo <? le_dec b) by lia.
Qed.

Lemma lor_bytes_spec : forall bs i, lor_bytes i bs = N.shiftl (le_dec bs) (i * 8).
Proof.
  induction bs as [|b r IH]; intros i; cbn [lor_bytes le_dec]; [now rewrite N.shiftl_0_l|].
  pose proof (Byte.to_N_bounded b). rewrite IH, (N.mul_comm 256), <- (lor_shift_add _ _ 8) by lia.
  rewrite N.shiftl_lor, N.shiftl_shiftl. do 2 f_equal. lia.
Qed.

Lemma lor_bytes_0 bs : lor_bytes 0 bs = le_dec bs.
Proof. rewrite lor_bytes_spec. apply N.shiftl_0_r. Qed.

Lemma big_loop_dec W n (lo : N) known bs :
  8 * n <= W -> N.succ lo = N.max (2 ^ 30) (256 ^ (n - 1)) ->
  oview (runo (bs <- rep_nat (N.to_nat n) read_byte ;;
               let x := lor_bytes 0 bs in if lo <? x then Ret x else Fail) known bs) =
  of_opt (sdec_mode W (N.max (2 ^ 30) (256 ^ (n - 1))) le_dec (N.to_nat n) bs).
Proof.
  intros HW Hlo. rewrite <- (big_read_dec W n lo known bs HW Hlo).
  rewrite runo_bind, runo_rep_read_byte, runo_read_bind.
  destruct (take (N.to_nat n) bs) as [[b r]|]; [|reflexivity].
  cbv zeta. now rewrite lor_bytes_0.
Qed.

(* the constant of the byte loop: one less than the least value that needs n bytes *)
Lemma umax_shiftr B n : 1 <= n <= B -> N.succ (N.shiftr (umax B) ((B - n + 1) * 8)) = 256 ^ (n - 1).
Proof.
  intros H. unfold umax. rewrite N.sub_1_r, <- N.ones_equiv, N.shiftr_div_pow2, N.ones_div_pow2 by lia.
  rewrite N.ones_equiv, N.succ_pred by (apply N.pow_nonzero; lia). rewrite pow256. f_equal. lia.
Qed.

Lemma mode0_dec W pn : 8 <= W -> pn < 256 -> N.shiftr pn 2 = pn / 4.
Proof. intros _ _. apply shr2. Qed.

(* the four decoders read the prefix byte and dispatch on its two low bits; mode 0 is
   the same in all of them *)
Lemma by_mode_spec W (d : byte -> prog N) known bs : 6 <= W ->
  (forall p r, Byte.to_N p mod 4 = 0 -> runo (d p) known r = OOk (N.shiftr (Byte.to_N p) 2) r) ->
  (forall p r, Byte.to_N p mod 4 = 1 ->
     oview (runo (d p) known r) = of_opt (sdec_mode W (2 ^ 6) (tagged p) 1 r)) ->
  (forall p r, Byte.to_N p mod 4 = 2 ->
     oview (runo (d p) known r) = of_opt (sdec_mode W (2 ^ 14) (tagged p) 3 r)) ->
  (forall p r, Byte.to_N p mod 4 = 3 ->
     oview (runo (d p) known r) =
     of_opt (let n := Byte.to_N p / 4 + 4 in
             sdec_mode W (N.max (2 ^ 30) (256 ^ (n - 1))) le_dec (N.to_nat n) r)) ->
  oview (runo (p <- read_byte ;; d p) known bs) = of_opt (sdec W bs).
Proof.
  intros HW H0 H1 H2 H3. rewrite runo_read_byte_bind. destruct bs as [|p r]; [reflexivity|].
  destruct (mod4_cases (Byte.to_N p)) as [E|[E|[E|E]]].
  - rewrite H0, sdec_0, shr2, <- tagged_nil by exact E. clear E.
    assert (2 ^ 6 <= 2 ^ W) by (apply N.pow_le_mono_r; lia).
    pose proof (tagged_bound p []) as Hb. cbn [length] in Hb.
    enough (sdec_mode W 0 (tagged p) 0 r = Some (tagged p [], r)) as -> by reflexivity.
    apply (sdec_mode_app W 0 _ 0 [] r); [reflexivity..|lia].
  - rewrite sdec_1 by exact E. now apply H1.
  - rewrite sdec_2 by exact E. now apply H2.
  - rewrite sdec_3 by exact E. now apply H3.
Qed.

Lemma dec_c8_spec known bs : oview (runo dec_c8 known bs) = of_opt (sdec 8 bs).
Proof.
  apply by_mode_spec; [lia|intros p r E; cbv zeta; rewrite E; clear E..].
  - reflexivity.
  - apply (prefixed_dec 8 _ p 1). intros x Hx. lia.
  - apply fail_dec. lia.
  - apply fail_dec. lia.
Qed.

Lemma dec_c16_spec known bs : oview (runo dec_c16 known bs) = of_opt (sdec 16 bs).
Proof.
  apply by_mode_spec; [lia|intros p r E; cbv zeta; rewrite E; clear E..].
  - reflexivity.
  - apply mode1_dec. lia.
  - apply (prefixed_dec 16 _ p 3). intros x Hx. lia.
  - apply fail_dec. lia.
Qed.

Lemma dec_c32_spec known bs : oview (runo dec_c32 known bs) = of_opt (sdec 32 bs).
Proof.
  apply by_mode_spec; [lia|intros p r E; cbv zeta; rewrite E; clear E..].
  - reflexivity.
  - apply mode1_dec. lia.
  - apply mode2_dec. lia.
  - rewrite shr2. generalize (Byte.to_N p / 4). intros q. destruct (N.eqb_spec q 0) as [->|].
    + apply (big_read_dec 32 4); [lia|reflexivity].
    + apply fail_dec. assert (256 ^ 4 <= 256 ^ (q + 4 - 1)) by (apply N.pow_le_mono_r; lia). lia.
Qed.

Lemma dec_cbig_spec B known bs : 8 <= B -> oview (runo (dec_cbig B) known bs) = of_opt (sdec (8 * B) bs).
Proof.
  intros HB. apply by_mode_spec; [lia|intros p r E; cbv zeta; rewrite E; clear E..].
  - reflexivity.
  - apply mode1_dec. lia.
  - apply mode2_dec. lia.
  - rewrite shr2. set (n := Byte.to_N p / 4 + 4).
    assert (Hn: 4 <= n) by apply N.le_add_l. clearbody n.
    destruct (N.eqb_spec n 4) as [->|]; [apply big_read_dec; [lia|reflexivity]|].
    destruct (N.eqb_spec n 8) as [->|]; [apply big_read_dec; [lia|reflexivity]|].
    destruct ((B =? 16) && (n =? 16)) eqn:E16.
    { apply andb_prop in E16 as [->%N.eqb_eq ->%N.eqb_eq]. apply big_read_dec; [lia|reflexivity]. }
    destruct (N.ltb_spec B n).
    { (* more bytes than the width has: at least 256^(n-1) >= 2^(8B) *)
      apply fail_dec. rewrite <- pow256.
      assert (256 ^ B <= 256 ^ (n - 1)) by (apply N.pow_le_mono_r; lia). lia. }
    apply big_loop_dec; [lia|]. rewrite umax_shiftr by lia.
    assert (256 ^ 4 <= 256 ^ (n - 1)) by (apply N.pow_le_mono_r; lia). lia.
Qed.

Theorem dec_compact_spec B known bs : okwidth B ->
  oview (runo (dec_compact B) known bs) = of_opt (sdec (8 * B) bs).
Proof.
  intros HB. unfold dec_compact.
  destruct (N.eqb_spec B 1) as [->|]; [apply dec_c8_spec|].
  destruct (N.eqb_spec B 2) as [->|]; [apply dec_c16_spec|].
  destruct (N.eqb_spec B 4) as [->|]; [apply dec_c32_spec|].
  apply dec_cbig_spec. unfold okwidth in HB. lia.
Qed.

(* Bit sequences: packing bits into store words and back (the pure part of the BitVec codec). *)
Require Import Scale.Bytes Scale.Codec.

Lemma N_to_bits_of_bits l : N_to_bits (length l) (bits_to_N l) = l.
Proof.
  induction l as [|b l IH]; cbn [length N_to_bits bits_to_N]; [reflexivity|].
  rewrite N.odd_add_mul_2. replace (((if b then 1 else 0) + 2 * bits_to_N l) / 2) with (bits_to_N l) by (destruct b; lia).
  rewrite IH. now destruct b.
Qed.

Lemma bits_to_N_lt l : bits_to_N l < 2 ^ N.of_nat (length l).
Proof.
  induction l as [|b l IH]; cbn [length bits_to_N]; [cbn; lia|].
  rewrite Nat2N.inj_succ, N.pow_succ_r'. destruct b; lia.
Qed.

Lemma pad_to_len n (l : list bool) : (length l <= n)%nat -> length (pad_to n l) = n.
Proof. intros H. unfold pad_to. rewrite app_length, repeat_length. lia. Qed.

Lemma chunk_word_rt B msb c : (length c <= N.to_nat (8 * B))%nat ->
  chunk_of_word B msb (word_of_chunk B msb c) = pad_to (N.to_nat (8 * B)) c.
Proof.
  intros H. unfold chunk_of_word, word_of_chunk. cbv zeta.
  pose proof (pad_to_len _ c H) as Hl. destruct msb.
  - rewrite <- (rev_length (pad_to _ c)) in Hl. rewrite <- Hl at 1. rewrite N_to_bits_of_bits. apply rev_involutive.
  - rewrite <- Hl at 1. apply N_to_bits_of_bits.
Qed.

Lemma word_lt B msb c : (length c <= N.to_nat (8 * B))%nat -> word_of_chunk B msb c < 2 ^ (8 * B).
Proof.
  intros H. rewrite <- (N2Nat.id (8 * B)), <- (pad_to_len _ c H). unfold word_of_chunk. cbv zeta.
  destruct msb; [rewrite <- rev_length|]; apply bits_to_N_lt.
Qed.

(* how a list is cut into chunks of n: a list of at most n items is its own, last chunk; a longer
   one gives a full chunk and the chunks of the rest *)
Inductive Chunked {A} (n : nat) : list A -> list (list A) -> Prop :=
| ChNil : Chunked n [] []
| ChLast l : (0 < length l <= n)%nat -> Chunked n l [l]
| ChFull l cs : (n < length l)%nat -> Chunked n (skipn n l) cs -> Chunked n l (firstn n l :: cs).

Lemma chunks_fuel_view {A} (n : nat) : (0 < n)%nat -> forall f (l : list A), (length l <= f)%nat ->
  Chunked n l (chunks_fuel f n l).
Proof.
  intros Hn. induction f as [|f IH]; intros [|b l'] Hl; try apply ChNil; [cbn in Hl; lia|].
  cbn [chunks_fuel]. set (l := b :: l') in *. assert (0 < length l)%nat by (cbn; lia).
  destruct (Nat.le_gt_cases (length l) n) as [Hle|Hgt].
  - rewrite firstn_all2, skipn_all2 by exact Hle. replace (chunks_fuel f n []) with (@nil (list A)) by (destruct f; reflexivity).
    apply ChLast. lia.
  - apply ChFull; [exact Hgt|]. apply IH. rewrite skipn_length. lia.
Qed.

Lemma Chunked_concat n (l : list bool) cs : Chunked n l cs -> exists k, concat (map (pad_to n) cs) = l ++ repeat false k.
Proof.
  induction 1 as [|l Hl|l cs Hl _ (k & Hk)]; cbn [map concat].
  - now exists 0%nat.
  - exists (n - length l)%nat. apply app_nil_r.
  - exists k. rewrite Hk. unfold pad_to. rewrite firstn_length_le, Nat.sub_diag by apply Nat.lt_le_incl, Hl.
    now rewrite app_nil_r, app_assoc, firstn_skipn.
Qed.
Lemma Chunked_le {A} n (l : list A) cs : Chunked n l cs -> Forall (fun c => (length c <= n)%nat) cs.
Proof. induction 1 as [|l Hl|l cs Hl _ IH]; repeat constructor; [apply Hl|apply firstn_le_length|exact IH]. Qed.
Lemma Chunked_count {A} n (l : list A) cs : (0 < n)%nat -> Chunked n l cs ->
  N.of_nat (length cs) = (N.of_nat (length l) + N.of_nat n - 1) / N.of_nat n.
Proof.
  intros Hn. induction 1 as [|l Hl|l cs Hl _ Hc]; cbn [length].
  - symmetry. apply N.div_small. lia.
  - apply N.div_unique with (r := N.of_nat (length l) - 1); lia.
  - rewrite Nat2N.inj_succ, Hc, skipn_length. clear - Hn Hl.
    replace (N.of_nat (length l) + N.of_nat n - 1) with (N.of_nat (length l - n) + N.of_nat n - 1 + 1 * N.of_nat n) by lia.
    rewrite N.div_add by lia. symmetry. apply N.add_1_r.
Qed.

Lemma chunks_fuel_spec (n : nat) : (0 < n)%nat -> forall f (l : list bool), (length l <= f)%nat ->
  (exists k, concat (map (pad_to n) (chunks_fuel f n l)) = l ++ repeat false k) /\
  Forall (fun c => (length c <= n)%nat) (chunks_fuel f n l) /\
  N.of_nat (length (chunks_fuel f n l)) = (N.of_nat (length l) + N.of_nat n - 1) / N.of_nat n.
Proof.
  intros Hn f l Hl. pose proof (chunks_fuel_view n Hn f l Hl) as H.
  split; [exact (Chunked_concat n l _ H)|split; [exact (Chunked_le n l _ H)|exact (Chunked_count n l _ Hn H)]].
Qed.

(* the padded chunks of l are l followed by padding; their number is ceil(|l| / n) *)
Lemma chunks_spec (n : nat) (l : list bool) : (0 < n)%nat ->
  (exists k, concat (map (pad_to n) (chunks n l)) = l ++ repeat false k) /\
  Forall (fun c => (length c <= n)%nat) (chunks n l) /\
  N.of_nat (length (chunks n l)) = (N.of_nat (length l) + N.of_nat n - 1) / N.of_nat n.
Proof. intros Hn. apply chunks_fuel_spec; auto. Qed.

Lemma words_fuel_len (B : nat) : (0 < B)%nat -> forall k f bs,
  length bs = (k * B)%nat -> (length bs <= f)%nat -> length (words_fuel f B bs) = k.
Proof.
  intros HB. induction k as [|k IH]; intros f bs Hl Hf; cbn [Nat.mul] in Hl.
  - destruct bs; [|discriminate]. destruct f; reflexivity.
  - destruct f as [|f]; [lia|]. destruct bs as [|b r]; [cbn in Hl; lia|].
    cbn [words_fuel length]. f_equal. apply IH; rewrite skipn_length; lia.
Qed.

Lemma words_len B bs k : 0 < B -> length bs = N.to_nat (k * B) -> length (words B bs) = N.to_nat k.
Proof. intros HB Hl. apply words_fuel_len; [lia|now rewrite Hl, N2Nat.inj_mul|apply le_n]. Qed.

Lemma N_to_bits_len n v : length (N_to_bits n v) = n.
Proof. revert v; induction n; intros v; cbn [N_to_bits length]; auto. Qed.

Lemma chunk_of_word_len B msb w : length (chunk_of_word B msb w) = N.to_nat (8 * B).
Proof. unfold chunk_of_word. destruct msb; rewrite ?rev_length; apply N_to_bits_len. Qed.

Lemma words_fuel_chunks (B : nat) : (0 < B)%nat -> forall l f,
  (length (concat l) <= f)%nat -> Forall (fun c => length c = B) l ->
  words_fuel f B (concat l) = map le_dec l.
Proof.
  intros HB. induction l as [|c l IH]; intros f Hf Hl.
  - destruct f; reflexivity.
  - inversion Hl as [|? ? H1 H2]; subst. cbn [concat map] in *. rewrite app_length in Hf.
    destruct f as [|f]; [lia|]. cbn [words_fuel].
    destruct (c ++ concat l) as [|b r] eqn:E; [apply (f_equal (@length byte)) in E; rewrite app_length in E; cbn in E; lia|].
    rewrite <- E, firstn_app_exact, skipn_app_exact. f_equal. apply IH; [lia|exact H2].
Qed.

Lemma words_chunks B l : 0 < B -> Forall (fun c => length c = N.to_nat B) l ->
  words B (concat l) = map le_dec l.
Proof. intros HB Hl. apply words_fuel_chunks; [lia|apply le_n|exact Hl]. Qed.

Lemma concat_map_length {A C} (f : A -> list C) m l : (forall x, length (f x) = m) ->
  length (concat (map f l)) = (length l * m)%nat.
Proof. intros H. induction l as [|x l IH]; cbn [map concat length]; [reflexivity|]. rewrite app_length, IH, H. lia. Qed.

Lemma concat_le_enc_len B ns : length (concat (map (le_enc B) ns)) = (length ns * B)%nat.
Proof. apply concat_map_length, le_enc_len. Qed.

Lemma words_concat B ns : 0 < B -> Forall (fun n => n < 2 ^ (8 * B)) ns ->
  words B (concat (map (le_enc (N.to_nat B)) ns)) = ns.
Proof.
  intros HB Hn. rewrite words_chunks, map_map; [|exact HB|].
  - rewrite <- (map_id ns) at 2. apply map_ext_in. intros n Hin. apply le_dec_enc.
    rewrite N2Nat.id, pow256. rewrite Forall_forall in Hn. now apply Hn.
  - apply Forall_map, Forall_forall. intros n _. apply le_enc_len.
Qed.

(* the bytes the encoder writes for a bit sequence, cut back into words and unpacked, are the
   sequence followed by padding; there are ceil(|l| / 8B) words *)
Definition bits_bytes B msb (l : list bool) : list byte :=
  concat (map (fun c => le_enc (N.to_nat B) (word_of_chunk B msb c)) (chunks (N.to_nat (8 * B)) l)).

Lemma bits_bytes_len B msb l : 0 < B ->
  length (bits_bytes B msb l) = N.to_nat ((N.of_nat (length l) + 8 * B - 1) / (8 * B) * B).
Proof.
  intros HB. unfold bits_bytes. destruct (chunks_spec (N.to_nat (8 * B)) l ltac:(lia)) as (_ & _ & Hcnt).
  rewrite <- (map_map (word_of_chunk B msb) (le_enc (N.to_nat B))), concat_le_enc_len, map_length. lia.
Qed.

Lemma bits_bytes_unpack B msb l : 0 < B ->
  exists k, concat (map (chunk_of_word B msb) (words B (bits_bytes B msb l))) = l ++ repeat false k.
Proof.
  intros HB. unfold bits_bytes. destruct (chunks_spec (N.to_nat (8 * B)) l ltac:(lia)) as ((k & Hcat) & Hall & _).
  exists k. rewrite <- (map_map (word_of_chunk B msb) (le_enc (N.to_nat B))), words_concat, map_map, <- Hcat.
  - f_equal. apply map_ext_in. intros c Hc. apply chunk_word_rt. rewrite Forall_forall in Hall. now apply Hall.
  - exact HB.
  - apply Forall_map. revert Hall. apply Forall_impl. intros c. apply word_lt.
Qed.

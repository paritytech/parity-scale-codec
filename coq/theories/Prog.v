(* The decoding "program" monad: a free monad over the operations of the Rust
   `Input` trait.  A decoder is a finite tree of requests; interpreters give it
   meaning:
     runo  - pure outcome on a byte string (slice / unknown-length reader);
     runt  - outcome together with the trace of events the decoder issued;
     run   - execution against a monitor (a stack of input wrappers), which may
             reject an event and which carries the wrapper state.
   [run_runt] (ProgFacts.v) shows that for EVERY program the monitored run is the
   traced run cut at the first rejected event, so every decoder written in this
   monad is covered at once. *)
Require Import Scale.Bytes.

(* HAlloc n: on_before_alloc_mem(n) - what the decoder announces to the input;
   HReal n: a heap reservation the decoder (or the container it fills) makes - not an
   Input call, invisible to every wrapper, used only by the C09 accounting *)
Inductive hook := HDescend | HAscend | HAlloc (n : N) | HReal (n : N).
Inductive event := ERead (n : N) | EHook (h : hook).

Inductive prog (A : Type) : Type :=
| Ret (a : A)
| Fail                                   (* Err(..) *)
| Crash                                  (* a Rust panic *)
| NoFuel                                 (* model artefact: recursion budget exhausted *)
| Read (n : N) (k : list byte -> prog A) (* Input::read of n bytes *)
| ReadByte (k : byte -> prog A)          (* Input::read_byte *)
| Need (n : N) (k : prog A)              (* `if let Some(len) = input.remaining_len()? { if len < n { return Err } }` *)
| Emit (h : hook) (k : prog A).          (* descend_ref / ascend_ref / on_before_alloc_mem *)
Arguments Ret {A}. Arguments Fail {A}. Arguments Crash {A}. Arguments NoFuel {A}.
Arguments Read {A}. Arguments ReadByte {A}. Arguments Need {A}. Arguments Emit {A}.

Fixpoint bindp {A B} (p : prog A) (f : A -> prog B) : prog B :=
  match p with
  | Ret a => f a
  | Fail => Fail
  | Crash => Crash
  | NoFuel => NoFuel
  | Read n k => Read n (fun bs => bindp (k bs) f)
  | ReadByte k => ReadByte (fun b => bindp (k b) f)
  | Need n k => Need n (bindp k f)
  | Emit h k => Emit h (bindp k f)
  end.

Declare Scope prog_scope.
Delimit Scope prog_scope with prog.
Notation "x <- c ;; f" := (bindp c (fun x => f))
  (at level 61, c at next level, right associativity) : prog_scope.
Notation "c ;;; f" := (bindp c (fun _ => f))
  (at level 61, right associativity) : prog_scope.
Open Scope prog_scope.

Definition emit (h : hook) : prog unit := Emit h (Ret tt).
Definition read (n : N) : prog (list byte) := Read n (fun bs => Ret bs).
Definition read_byte : prog byte := ReadByte (fun b => Ret b).
Definition need (n : N) : prog unit := Need n (Ret tt).

(* repetition: Peano version (for proofs) and binary version (for execution
   with hostile counts: O(log n) work before the first request) *)
Fixpoint rep_nat {A} (n : nat) (c : prog A) : prog (list A) :=
  match n with
  | O => Ret []
  | S n' => a <- c ;; r <- rep_nat n' c ;; Ret (a :: r)
  end.

Fixpoint rep_pos {A} (p : positive) (c : prog A) : prog (list A) :=
  match p with
  | xH => a <- c ;; Ret [a]
  | xO q => l1 <- rep_pos q c ;; l2 <- rep_pos q c ;; Ret (l1 ++ l2)
  | xI q => a <- c ;; l1 <- rep_pos q c ;; l2 <- rep_pos q c ;; Ret (a :: l1 ++ l2)
  end.

Definition rep {A} (n : N) (c : prog A) : prog (list A) :=
  match n with N0 => Ret [] | Npos p => rep_pos p c end.

(* sequencing a list of programs *)
Fixpoint seqp {A} (l : list (prog A)) : prog (list A) :=
  match l with
  | [] => Ret []
  | c :: r => a <- c ;; rs <- seqp r ;; Ret (a :: rs)
  end.

(* pure outcome *)
Inductive out (A : Type) :=
| OOk (a : A) (rest : list byte) | OErr (rest : list byte) | OPanic | ONoFuel.
Arguments OOk {A}. Arguments OErr {A}. Arguments OPanic {A}. Arguments ONoFuel {A}.

(* [avail n bs]: at least n bytes are there.  Computed by dropping n bytes with a
   binary recursion on n, so that a read costs O(n) (not O(length bs)) and a
   hostile n of 2^32 never becomes a unary number; [avail_spec] gives the
   arithmetic reading used in every proof. *)
Fixpoint drop_pos (p : positive) (bs : list byte) : option (list byte) :=
  match p with
  | xH => match bs with [] => None | _ :: r => Some r end
  | xO q => match drop_pos q bs with Some r => drop_pos q r | None => None end
  | xI q => match bs with
            | [] => None
            | _ :: r => match drop_pos q r with Some r' => drop_pos q r' | None => None end
            end
  end.
Definition avail (n : N) (bs : list byte) : bool :=
  match n with
  | N0 => true
  | Npos p => match drop_pos p bs with Some _ => true | None => false end
  end.

Lemma skipn_skipn' {A} (a b : nat) : forall l : list A, skipn a (skipn b l) = skipn (b + a) l.
Proof.
  induction b as [|b IH]; intros l; [reflexivity|].
  destruct l as [|x l]; cbn [skipn Nat.add]; [now rewrite skipn_nil|apply IH].
Qed.

(* dropping n bytes, when they are there *)
Definition dropn (n : nat) (bs : list byte) : option (list byte) :=
  if (n <=? length bs)%nat then Some (skipn n bs) else None.
Lemma dropn_add a b bs : dropn (a + b) bs = match dropn a bs with Some r => dropn b r | None => None end.
Proof.
  unfold dropn. destruct (Nat.leb_spec a (length bs)) as [Ha|Ha].
  - rewrite skipn_length, skipn_skipn'.
    destruct (Nat.leb_spec (a + b) (length bs)); destruct (Nat.leb_spec b (length bs - a)); try lia; reflexivity.
  - destruct (Nat.leb_spec (a + b) (length bs)); [lia|reflexivity].
Qed.

Lemma drop_pos_spec p : forall bs, drop_pos p bs = dropn (Pos.to_nat p) bs.
Proof.
  induction p as [q IH|q IH|]; intros bs; cbn [drop_pos].
  - destruct bs as [|b r]; [reflexivity|]. rewrite Pos2Nat.inj_xI.
    change (dropn (S (2 * Pos.to_nat q)) (b :: r)) with (dropn (Pos.to_nat q + (Pos.to_nat q + 0)) r).
    rewrite Nat.add_0_r, dropn_add, IH. destruct (dropn (Pos.to_nat q) r); [apply IH|reflexivity].
  - rewrite Pos2Nat.inj_xO. change (2 * Pos.to_nat q)%nat with (Pos.to_nat q + (Pos.to_nat q + 0))%nat.
    rewrite Nat.add_0_r, dropn_add, IH. destruct (dropn (Pos.to_nat q) bs); [apply IH|reflexivity].
  - destruct bs; reflexivity.
Qed.

Lemma avail_spec n bs : avail n bs = (n <=? N.of_nat (length bs)).
Proof.
  destruct n as [|p]; cbn [avail].
  - lia.
  - rewrite drop_pos_spec. unfold dropn.
    destruct (Nat.leb_spec (Pos.to_nat p) (length bs)); destruct (N.leb_spec (N.pos p) (N.of_nat (length bs))); try reflexivity; lia.
Qed.
Lemma avail_0 bs : avail 0 bs = true.
Proof. reflexivity. Qed.

Lemma avail_dropn n bs : avail n bs = true -> dropn (N.to_nat n) bs = Some (skipn (N.to_nat n) bs).
Proof.
  rewrite avail_spec. unfold dropn. intros H.
  destruct (Nat.leb_spec (N.to_nat n) (length bs)); [reflexivity|lia].
Qed.
Lemma dropn_some n bs r : dropn n bs = Some r -> bs = firstn n bs ++ r /\ length bs = (n + length r)%nat.
Proof.
  unfold dropn. destruct (Nat.leb_spec n (length bs)); intros [= <-].
  rewrite firstn_skipn, skipn_length. split; [reflexivity|lia].
Qed.
Global Opaque avail.

Fixpoint runo {A} (p : prog A) (known : bool) (bs : list byte) : out A :=
  match p with
  | Ret a => OOk a bs
  | Fail => OErr bs
  | Crash => OPanic
  | NoFuel => ONoFuel
  | Read n k =>
      if avail n bs
      then runo (k (firstn (N.to_nat n) bs)) known (skipn (N.to_nat n) bs)
      else OErr bs
  | ReadByte k => match bs with [] => OErr bs | b :: r => runo (k b) known r end
  | Need n k => if known && negb (avail n bs) then OErr bs else runo k known bs
  | Emit _ k => runo k known bs
  end.

(* outcome + trace of events (up to the end, or up to the failure) *)
Definition cons_ev {A} (e : event) (r : out A * list event) : out A * list event :=
  (fst r, e :: snd r).

Fixpoint runt {A} (p : prog A) (known : bool) (bs : list byte) : out A * list event :=
  match p with
  | Ret a => (OOk a bs, [])
  | Fail => (OErr bs, [])
  | Crash => (OPanic, [])
  | NoFuel => (ONoFuel, [])
  | Read n k =>
      if avail n bs
      then cons_ev (ERead n) (runt (k (firstn (N.to_nat n) bs)) known (skipn (N.to_nat n) bs))
      else (OErr bs, [])
  | ReadByte k =>
      match bs with [] => (OErr bs, []) | b :: r => cons_ev (ERead 1) (runt (k b) known r) end
  | Need n k => if known && negb (avail n bs) then (OErr bs, []) else runt k known bs
  | Emit h k => cons_ev (EHook h) (runt k known bs)
  end.

(* monitors: the state machines of the input wrappers.  A step returns the new
   state and whether the event is accepted (the wrappers update their state
   before they compare it with the limit). *)
Record monitor := { mst : Type; mstep : event -> mst -> mst * bool }.

Inductive res (S A : Type) :=
| ROk (a : A) (rest : list byte) (s : S) | RErr (s : S) | RPanic | RNoFuel.
Arguments ROk {S A}. Arguments RErr {S A}. Arguments RPanic {S A}. Arguments RNoFuel {S A}.

Fixpoint run (m : monitor) {A} (p : prog A) (known : bool) (bs : list byte) (s : mst m)
  : res (mst m) A :=
  match p with
  | Ret a => ROk a bs s
  | Fail => RErr s
  | Crash => RPanic
  | NoFuel => RNoFuel
  | Read n k =>
      if avail n bs
      then match mstep m (ERead n) s with
           | (s', true) => run m (k (firstn (N.to_nat n) bs)) known (skipn (N.to_nat n) bs) s'
           | (s', false) => RErr s'
           end
      else RErr s
  | ReadByte k =>
      match bs with
      | [] => RErr s
      | b :: r => match mstep m (ERead 1) s with
                  | (s', true) => run m (k b) known r s'
                  | (s', false) => RErr s'
                  end
      end
  | Need n k => if known && negb (avail n bs) then RErr s else run m k known bs s
  | Emit h k =>
      match mstep m (EHook h) s with
      | (s', true) => run m k known bs s'
      | (s', false) => RErr s'
      end
  end.

(* feeding a trace through a monitor: final (or rejecting) state, and whether
   every event was accepted *)
Fixpoint feed (m : monitor) (s : mst m) (evs : list event) : mst m * bool :=
  match evs with
  | [] => (s, true)
  | e :: r => match mstep m e s with
              | (s', true) => feed m s' r
              | (s', false) => (s', false)
              end
  end.

Definition lift_out {S A} (o : out A) (s : S) : res S A :=
  match o with
  | OOk a rest => ROk a rest s
  | OErr _ => RErr s
  | OPanic => RPanic
  | ONoFuel => RNoFuel
  end.

(* the three wrappers of the crate, and stacks of them *)
Definition u64max : N := 18446744073709551615.
Definition u32max : N := 4294967295.
Definition usize_max : N := u64max.
Definition sat_add (mx a b : N) : N := N.min mx (a + b).

(* CountedInput: counter += len (saturating) after a successful inner read *)
Definition counted : monitor :=
  {| mst := N;
     mstep := fun e c => match e with
                         | ERead n => (sat_add u64max c n, true)
                         | EHook _ => (c, true)
                         end |}.

(* DepthTrackingInput: (depth, max_depth).  `depth -= 1` on a u32: the model
   keeps the mathematical predecessor saturating at 0 and balanced traces
   ([Depth.bal]) never reach that case. *)
Definition depthmon (max_depth : N) : monitor :=
  {| mst := N;
     mstep := fun e d => match e with
                         | EHook HDescend => (d + 1, d + 1 <=? max_depth)
                         | EHook HAscend => (d - 1, true)
                         | _ => (d, true)
                         end |}.

(* MemTrackingInput: used_mem = used_mem.saturating_add(size); fails when >= limit *)
Definition memmon (limit : N) : monitor :=
  {| mst := N;
     mstep := fun e u => match e with
                         | EHook (HAlloc n) =>
                             let u' := sat_add usize_max u n in (u', negb (limit <=? u'))
                         | _ => (u, true)
                         end |}.

(* an outer wrapper around an inner one: the inner sees the event first *)
Definition mstack (inner outer : monitor) : monitor :=
  {| mst := mst inner * mst outer;
     mstep := fun e s =>
       match mstep inner e (fst s) with
       | (i', true) => let '(o', ok) := mstep outer e (snd s) in ((i', o'), ok)
       | (i', false) => ((i', snd s), false)
       end |}.

Definition nullmon : monitor := {| mst := unit; mstep := fun _ s => (s, true) |}.

(* The traced round trip: decoding the encoding of a well-formed value returns its canonical form and
   what follows, nests ddepth deep and announces ann - one induction over CodecEnc.Enc in the
   judgement of Yields.v.  C02 and the value side of C11 and C12 are its projections. *)
Require Import Scale.Bytes Scale.Eres Scale.Prog Scale.ProgMore Scale.Chunks Scale.Monitors Scale.CompactImpl
  Scale.CompactSpec Scale.CompactTheorems Scale.Codec Scale.CodecEnc Scale.CodecDec Scale.Bits Scale.Depth Scale.Mem
  Scale.Yields.

Lemma econcat_ok l : forall bs, econcat l = EOk bs -> exists bss, l = map EOk bss /\ bs = concat bss.
Proof.
  induction l as [|r l IH]; intros bs; cbn [econcat].
  - intros [= <-]. exists []. auto.
  - unfold ebind at 1. destruct r as [x| | |]; try discriminate.
    unfold ebind. destruct (econcat l) as [y| | |] eqn:E; try discriminate.
    intros [= <-]. destruct (IH y eq_refl) as [bss [-> ->]]. exists (x :: bss). auto.
Qed.

Lemma rt_prim B n known rest : n < 2 ^ (8 * B) ->
  runo (dec_prim B) known (le_enc (N.to_nat B) n ++ rest) = OOk n rest.
Proof.
  intros Hn. rewrite dec_prim_is_read, rt_read_bind by apply le_enc_len. cbn [runo].
  now rewrite le_dec_enc by now rewrite N2Nat.id, pow256.
Qed.

(* a sequence of primitive values is encoded as the concatenation of their little-endian bytes:
   B bytes each, and cut into words they are the values again *)
Lemma encs_prim B l bs : okB B = true -> Encs (TPrim B) l bs ->
  length bs = N.to_nat (N.of_nat (length l) * B) /\ map VN (words B bs) = map (canon (TPrim B)) l.
Proof.
  intros HB Hl. apply okB_pos in HB.
  assert (exists ns, l = map VN ns /\ bs = concat (map (le_enc (N.to_nat B)) ns) /\ Forall (fun n => n < 2 ^ (8 * B)) ns)
    as (ns & -> & -> & Hns).
  { remember (TPrim B) as t eqn:Et. induction Hl as [|t v l b bs Hv Hl IH]; subst t; [exists []; auto|].
    destruct (IH eq_refl) as (ns & -> & -> & Hns). apply Enc_prim_inv in Hv as (n & -> & -> & Hn).
    exists (n :: ns). auto. }
  split.
  - rewrite concat_le_enc_len, !map_length. lia.
  - rewrite words_concat by (lia || exact Hns). now rewrite !map_map.
Qed.

(* sets and maps: a strictly sorted list is its own canonical form *)
Definition klt (keyed : bool) (x y : val) : bool :=
  match val_cmp (key_of keyed x) (key_of keyed y) with Lt => true | _ => false end.

Lemma set_insert_last keyed x acc :
  forallb (fun y => klt keyed y x) acc = true -> set_insert keyed x acc = acc ++ [x].
Proof.
  induction acc as [|y acc IH]; intros H; [reflexivity|].
  cbn [forallb] in H. apply andb_prop in H as [Hy Hacc]. cbn [set_insert app]. unfold klt in Hy.
  destruct (val_cmp (key_of keyed y) (key_of keyed x)); try discriminate. now rewrite IH.
Qed.

Lemma canon_set_sorted keyed l : forall acc,
  strictly_sorted keyed l = true ->
  forallb (fun y => forallb (fun z => klt keyed y z) l) acc = true ->
  fold_left (fun a x => set_insert keyed x a) l acc = acc ++ l.
Proof.
  induction l as [|x l IH]; intros acc Hs Hacc; cbn [fold_left]; [now rewrite app_nil_r|].
  cbn [strictly_sorted] in Hs. apply andb_prop in Hs as [Hx Hl].
  rewrite set_insert_last.
  - rewrite IH; [now rewrite <- app_assoc|exact Hl|].
    rewrite forallb_app. apply andb_true_intro. split.
    + rewrite forallb_forall in *. intros y Hy. specialize (Hacc y Hy). cbn [forallb] in Hacc.
      now apply andb_prop in Hacc as [_ H].
    + cbn [forallb]. rewrite andb_true_r. exact Hx.
  - rewrite forallb_forall in *. intros y Hy. specialize (Hacc y Hy). cbn [forallb] in Hacc.
    now apply andb_prop in Hacc as [H _].
Qed.

Lemma canon_set_id keyed l : strictly_sorted keyed l = true -> canon_set keyed l = l.
Proof. intros H. unfold canon_set. now rewrite canon_set_sorted. Qed.

Lemma bytes_of_vals_inv l bs : bytes_of_vals l = Some bs -> l = map (fun b => VN (Byte.to_N b)) bs.
Proof.
  revert bs; induction l as [|v l IH]; intros bs; cbn [bytes_of_vals].
  - intros [= <-]. reflexivity.
  - destruct (is_byte v) as [b|] eqn:Ev; [|discriminate]. destruct (bytes_of_vals l) as [bs'|]; [|discriminate].
    intros [= <-]. cbn [map]. f_equal; [|now apply IH].
    unfold is_byte in Ev. destruct v; try discriminate. destruct (N.ltb_spec n 256); [|discriminate].
    injection Ev as <-. rewrite to_byte_of, N.mod_small by lia. reflexivity.
Qed.

Lemma bytes_of_vals_len l bs : bytes_of_vals l = Some bs -> length bs = length l.
Proof. intros H. apply bytes_of_vals_inv in H. subst. now rewrite map_length. Qed.

Lemma yields_compact A B n (f : N -> prog A) known rest a r d m : okB B = true -> n < 2 ^ (8 * B) ->
  yields (f n) known rest a r d m -> yields (x <- dec_compact B ;; f x) known (spec_compact n ++ rest) a r d m.
Proof.
  intros HB Hn. apply yields_pre; [apply silent_dec_compact|apply silent_dec_compact|].
  apply rt_compact; [now apply okB_okwidth|exact Hn].
Qed.

Lemma yields_count A n (f : N -> prog A) known rest a r d m : n <= u32max ->
  yields (f n) known rest a r d m -> yields (x <- dec_compact 4 ;; f x) known (spec_compact n ++ rest) a r d m.
Proof. intros Hn. apply yields_compact; [reflexivity|now apply u32_width]. Qed.

Lemma yields_prim A B n (f : N -> prog A) known rest a r d m : n < 2 ^ (8 * B) ->
  yields (f n) known rest a r d m -> yields (x <- dec_prim B ;; f x) known (le_enc (N.to_nat B) n ++ rest) a r d m.
Proof. intros Hn. apply yields_pre; [apply silent_dec_prim|apply silent_dec_prim|now apply rt_prim]. Qed.

Lemma yields_node sz (c : prog val) known bs a r d m :
  yields c known bs a r d m -> yields (node sz c) known bs a r d (0 + m).
Proof. intros H. unfold node. eapply yields_eq; [eapply yields_bind; [exact H|apply yields_real, yields_ret]|lia|lia]. Qed.

(* a vector of elements of fixed width: one bulk read *)
Lemma yields_prims B l bs known rest : okB B = true -> Encs (TPrim B) l bs ->
  yields (x <- bulk_bytes B (N.of_nat (length l)) ;; Ret (map VN (words B x))) known (bs ++ rest)
         (map (canon (TPrim B)) l) rest 0 (N.of_nat (length l) * B).
Proof.
  intros HB Hl. destruct (encs_prim B l bs HB Hl) as [Hlen <-].
  apply (yields_map (fun x => map VN (words B x))), yields_bulk; [now apply okB_pos|exact Hlen].
Qed.

Lemma yields_chunked {A sz n} {c : prog val} (g : list val -> A) {known bs l r d m} : sz <= max_prealloc ->
  yields (rep n (emit (HAlloc sz) ;;; c)) known bs l r d m ->
  yields (nest (chunked_items sz n c) g) known bs (g l) r (1 + d) m.
Proof. intros Hsz H. apply yields_nest. eapply yields_veq; [now apply veq_chunked|exact H]. Qed.

Lemma yields_nodes {A a sz n} {c : prog val} (g : list val -> A) {known bs l r d m} :
  yields (rep n (node sz c)) known bs l r d m ->
  yields (nest (emit (HAlloc a) ;;; rep n (node sz c)) g) known bs (g l) r (1 + d) (a + m).
Proof. intros H. now apply yields_nest, yields_alloc. Qed.

Lemma prim_quiet B l : maxl (map (ddepth (TPrim B)) l) = 0 /\ suml (map (ann (TPrim B)) l) = 0.
Proof.
  split; [|apply ann_prim_zero]. induction l as [|v l IH]; [reflexivity|].
  cbn [map maxl fold_right]. fold (maxl (map (ddepth (TPrim B)) l)). rewrite IH. now destruct v.
Qed.

Lemma canon_vars_at vs k i t v : variant_at vs k = Some (i, t) -> canon_vars vs k v = canon t v.
Proof. apply (vars_select canon canon_vars); reflexivity. Qed.
Lemma ddepth_vars_at vs k i t v : variant_at vs k = Some (i, t) -> ddepth_vars vs k v = ddepth t v.
Proof. apply (vars_select ddepth ddepth_vars); reflexivity. Qed.

Lemma sat_mul_count n sz : n <= u32max -> sz <= max_prealloc -> sat_mul n sz = n * sz.
Proof. unfold u32max, max_prealloc. intros. apply sat_mul_small. unfold usize_max, u64max. nia. Qed.

(* The second part is the items of a sequence, for any c that does what [dec t] does and announces x
   more per item: the chunked loop announces each element's size (yields_alloc), a list or tree
   node nothing (yields_node). *)
Theorem dec_yields :
  (forall t v bs, Enc t v bs -> wf_ty t = true -> forall known rest,
     yields (dec t) known (bs ++ rest) (canon t v) rest (ddepth t v) (ann t v)) /\
  (forall t l bs, Encs t l bs -> wf_ty t = true ->
     forall (c : prog val) x,
       (forall known bs0 a r d m, yields (dec t) known bs0 a r d m -> yields c known bs0 a r d (x + m)) ->
     forall known rest, yields (rep_nat (length l) c) known (bs ++ rest) (map (canon t) l) rest
                               (maxl (map (ddepth t) l)) (N.of_nat (length l) * x + suml (map (ann t) l))).
Proof.
  apply Enc_Encs_ind.
  - (* unit *) intros _ known rest. apply yields_ret.
  - (* bool *) intros b _ known rest. apply yields_tag. destruct b; apply yields_ret.
  - (* prim *) intros B n HB Hn _ known rest. cbn [dec].
    now apply yields_prim, yields_ret.
  - (* compact *) intros B n HB Hn _ known rest. cbn [dec].
    now apply yields_compact, yields_ret.
  - (* nonzero *) intros B n HB Hn _ known rest. cbn [dec].
    apply yields_prim; [lia|]. destruct (N.eqb_spec n 0); [lia|apply yields_ret].
  - (* none *) intros t _ known rest. apply yields_tag, yields_ret.
  - (* some *) intros t v bs _ IH Ht known rest. cbn [app dec canon ddepth ann]. apply yields_tag. apply yields_map, IH, Ht.
  - (* ok *) intros t e v bs _ IH H known rest. apply andb_prop in H as [Ht _]. cbn [app dec canon ddepth ann]. apply yields_tag. apply yields_map, IH, Ht.
  - (* err *) intros t e v bs _ IH H known rest. apply andb_prop in H as [_ He]. cbn [app dec canon ddepth ann]. apply yields_tag. apply yields_map, IH, He.
  - intros _ known rest. apply yields_tag, yields_ret.
  - intros b _ known rest. apply yields_tag. destruct b; apply yields_ret.
  - (* collections *) intros k sz t l bs Hl IH Hn Hs H known rest. cbn [wf_ty] in H. apply andb_prop in H as [Ht Hsz]. apply N.leb_le in Hsz.
    specialize (IH Ht). rewrite <- app_assoc. cbn [dec].
    apply yields_count; [exact Hn|]. set (n := N.of_nat (length l)) in *.
    assert (Hnodes: yields (rep n (node sz (dec t))) known (bs ++ rest) (map (canon t) l) rest
                           (maxl (map (ddepth t) l)) (suml (map (ann t) l))).
    { eapply yields_eq; [apply yields_rep_of_nat, (IH _ 0), yields_node|reflexivity|lia]. }
    assert (Hchunked: yields (nest (chunked_items sz n (dec t)) (fun l0 => l0)) known (bs ++ rest) (map (canon t) l) rest
                             (1 + maxl (map (ddepth t) l)) (n * sz + suml (map (ann t) l))).
    { apply (yields_chunked (fun l0 => l0)); [exact Hsz|]. apply yields_rep_of_nat, IH. intros. now apply yields_alloc. }
    destruct k; cbv iota; cbn [canon ddepth ann is_keyed]; fold n.
    + (* Vec: elements of fixed width in one bulk read, others element-wise in chunks *)
      apply (yields_map VSeq). destruct t; try exact Hchunked. now apply yields_prims.
    + (* BinaryHeap: the same, sorted *)
      apply (yields_map (fun items => VSeq (sort_vals items))). destruct t; try exact Hchunked. now apply yields_prims.
    + (* LinkedList: one node per element *)
      rewrite <- (sat_mul_count n sz Hn Hsz). apply (yields_nodes VSeq), Hnodes.
    + (* BTreeSet *) rewrite <- (canon_set_id false (map (canon t) l) Hs) at 1.
      apply (yields_nodes (fun items => VSeq (canon_set false items))), Hnodes.
    + (* BTreeMap *) rewrite <- (canon_set_id true (map (canon t) l) Hs) at 1.
      apply (yields_nodes (fun items => VSeq (canon_set true items))), Hnodes.
  - (* strings *) intros l bs Eb Hn Hu _ known rest. rewrite <- app_assoc. cbn [dec canon ddepth ann].
    apply yields_count; [exact Hn|].
    apply (yields_eq (N.max 0 0) (N.of_nat (length l) * 1 + 0)); [|reflexivity|lia].
    eapply yields_bind.
    + apply (yields_bulk 1); [lia|]. rewrite (bytes_of_vals_len _ _ Eb). lia.
    + rewrite Hu, (bytes_of_vals_inv _ _ Eb). apply yields_ret.
  - (* arrays *) intros t l bs Hl IH Ht known rest. cbn [wf_ty] in Ht. specialize (IH Ht). cbn [dec canon ddepth ann].
    assert (Hgen: yields (items <- rep (N.of_nat (length l)) (dec t) ;; Ret (VSeq items)) known (bs ++ rest)
                         (VSeq (map (canon t) l)) rest (maxl (map (ddepth t) l)) (suml (map (ann t) l))).
    { apply (yields_map VSeq). eapply yields_eq; [apply yields_rep_of_nat, (IH _ 0); auto|reflexivity|lia]. }
    destruct t; try exact Hgen.
    (* elements of fixed width: a single read *)
    destruct (encs_prim B l bs Ht Hl) as [Hlen <-]. destruct (prim_quiet B l) as [-> ->].
    apply yields_read; [exact Hlen|apply yields_ret].
  - (* pairs *) intros a b x y bx by' _ IHa _ IHb H known rest. apply andb_prop in H as [Ha Hb].
    rewrite <- app_assoc. cbn [dec canon ddepth ann]. eapply yields_bind; [now apply IHa|]. now apply yields_map, IHb.
  - (* boxes *) intros sz t v bs _ IH Ht known rest. cbn [dec canon ddepth ann].
    apply (yields_nest _ _ (emit (HAlloc sz) ;;; emit (HReal sz) ;;; dec t) (fun v => v)), yields_alloc, yields_real, IH, Ht.
  - (* durations *) intros s n Hs Hn _ known rest. rewrite <- app_assoc. cbn [dec canon ddepth ann].
    apply yields_read; [apply le_enc_len|]. apply yields_read; [apply le_enc_len|].
    rewrite !le_dec_enc by (change (256 ^ N.of_nat 8) with (2 ^ 64) || (unfold a_billion in Hn; change (256 ^ N.of_nat 4) with 4294967296); lia).
    destruct (N.leb_spec a_billion n); [lia|apply yields_ret].
  - (* bit sequences: the words are the padded chunks; the first `bits` of them are the sequence *)
    intros B msb l HB HB8 Hlen _ known rest. pose proof (okB_pos B HB) as Hpos. rewrite <- app_assoc. cbn [dec canon ddepth ann].
    apply yields_count; [unfold u32max; change (2 ^ 29) with 536870912 in Hlen; lia|].
    destruct (N.ltb_spec (2 ^ 29 - 1) (N.of_nat (length l))); [lia|].
    fold (bits_bytes B msb l). destruct (bits_bytes_unpack B msb l) as [k Hk]; [lia|].
    apply (yields_eq (N.max 0 0) ((N.of_nat (length l) + 8 * B - 1) / (8 * B) * B + 0)); [|reflexivity|lia].
    eapply yields_bind; [apply yields_bulk; [lia|apply bits_bytes_len; lia]|].
    cbv zeta. rewrite Hk, app_length.
    destruct (N.ltb_spec (N.of_nat (length l + length (repeat false k))) (N.of_nat (length l))); [lia|].
    rewrite Nat2N.id, firstn_app_exact. apply yields_ret.
  - (* enums *) intros vs k i t v bs Hok Hat _ IH Hvs known rest. pose proof (variant_at_lt vs Hok k i t Hat) as Hi.
    cbn [app dec canon ddepth ann]. apply yields_tag. rewrite to_byte_of, N.mod_small, (dec_vars_select vs Hok k i t 0 Hat) by exact Hi.
    rewrite (canon_vars_at vs k i t v Hat), (ddepth_vars_at vs k i t v Hat), (ann_vars_at vs k i t v Hat).
    apply (yields_map (VVar k)), IH, (variant_at_wf vs Hvs k i t Hat).
  - (* no items *) intros t _ c x _ known rest. apply yields_ret.
  - (* an item and the rest *) intros t v l b bs _ IHv _ IHl Ht c x Hc known rest. rewrite <- app_assoc. cbn [length map].
    eapply yields_eq; [eapply yields_rep_S; [apply Hc, IHv, Ht|apply (IHl Ht c x Hc)]|reflexivity|].
    cbn [suml fold_right]. fold (suml (map (ann t) l)). lia.
Qed.

Corollary enc_yields t v bs known rest :
  wf_ty t = true -> wf t v = true -> enc_spec t v = EOk bs ->
  yields (dec t) known (bs ++ rest) (canon t v) rest (ddepth t v) (ann t v).
Proof. intros Ht Hw He. exact (proj1 dec_yields t v bs (enc_view t v bs Hw He) Ht known rest). Qed.

Theorem roundtrip t v bs known rest :
  wf_ty t = true -> wf t v = true -> enc_spec t v = EOk bs ->
  runo (dec t) known (bs ++ rest) = OOk (canon t v) rest.
Proof. intros Ht Hw He. exact (yields_runo (enc_yields t v bs known rest Ht Hw He)). Qed.

(* the nesting of the trace of decoding an encoding is the nesting depth of the value *)
Theorem trace_depth_is_value_depth t v bs known rest :
  wf_ty t = true -> wf t v = true -> enc_spec t v = EOk bs ->
  max_depth 0 (snd (runt (dec t) known (bs ++ rest))) = ddepth t v.
Proof. intros Ht Hw He. exact (yields_depth (enc_yields t v bs known rest Ht Hw He)). Qed.

(* hence: depth-limited decoding of an encoding succeeds exactly when L >= the value's depth *)
Theorem depth_limit_on_encodings t v bs known rest L :
  wf_ty t = true -> wf t v = true -> enc_spec t v = EOk bs ->
  if ddepth t v <=? L
  then exists d, run (depthmon L) (dec t) known (bs ++ rest) 0 = ROk (canon t v) rest d
  else exists d, run (depthmon L) (dec t) known (bs ++ rest) 0 = RErr d.
Proof. intros Ht Hw He. exact (yields_depth_limit L (enc_yields t v bs known rest Ht Hw He)). Qed.

(* the sizes announced while decoding an encoding sum to the closed form *)
Theorem announced_is_closed_form t v bs known rest :
  wf_ty t = true -> wf t v = true -> enc_spec t v = EOk bs ->
  asum (snd (runt (dec t) known (bs ++ rest))) = ann t v.
Proof. intros Ht Hw He. exact (yields_asum (enc_yields t v bs known rest Ht Hw He)). Qed.

Theorem tracked_usage_is_closed_form t v bs known rest :
  wf_ty t = true -> wf t v = true -> enc_spec t v = EOk bs -> ann t v <= usize_max ->
  used_after 0 (snd (runt (dec t) known (bs ++ rest))) = ann t v.
Proof.
  intros Ht Hw He Hu. rewrite used_after_asum; rewrite (announced_is_closed_form t v bs known rest Ht Hw He); lia.
Qed.

(* memory-limited decoding of an encoding: the value when L exceeds the closed form, an error when
   the closed form is positive and L does not *)
Theorem mem_limit_on_encodings t v bs known rest L :
  wf_ty t = true -> wf t v = true -> enc_spec t v = EOk bs -> ann t v <= usize_max ->
  (ann t v < L -> exists u, run (memmon L) (dec t) known (bs ++ rest) 0 = ROk (canon t v) rest u) /\
  (0 < ann t v -> L <= ann t v -> exists u, run (memmon L) (dec t) known (bs ++ rest) 0 = RErr u).
Proof. intros Ht Hw He. exact (yields_mem_limit L (enc_yields t v bs known rest Ht Hw He)). Qed.

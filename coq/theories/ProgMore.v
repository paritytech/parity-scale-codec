(* More generic facts about decoder programs: locality (extension of the input), panic-freedom and
   independence of the "known remaining length" flag as compositional predicates, programs that
   emit no event of a class (silent), and the two shapes dec is built from that Codec.v spells out
   in place: the descend/ascend bracket (nest) and the chunk-by-chunk loop (two_stage). *)
Require Import Scale.Bytes Scale.Prog Scale.ProgFacts.

Lemma avail_app n bs x : avail n bs = true -> avail n (bs ++ x) = true.
Proof. rewrite !avail_spec, app_length. lia. Qed.

Lemma avail_true_len n bs : avail n bs = true -> (N.to_nat n <= length bs)%nat.
Proof. rewrite avail_spec. lia. Qed.

(* locality: a successful decode does not depend on what follows *)
Theorem runo_extend A (p : prog A) known x : forall bs v r,
  runo p known bs = OOk v r -> runo p known (bs ++ x) = OOk v (r ++ x).
Proof.
  induction p as [a| | | |n k IH|k IH|nd k IH|h k IH]; intros bs v r; cbn [runo]; try discriminate.
  - intros [= <- <-]. reflexivity.
  - destruct (avail n bs) eqn:Ha; [|discriminate]. rewrite (avail_app _ _ x Ha).
    pose proof (avail_true_len _ _ Ha) as Hl.
    rewrite firstn_app, skipn_app.
    replace (N.to_nat n - length bs)%nat with 0%nat by lia. cbn [firstn skipn]. rewrite app_nil_r.
    apply IH.
  - destruct bs as [|b r0]; [discriminate|]. cbn [app]. apply IH.
  - destruct known; cbn [andb].
    + destruct (avail nd bs) eqn:Ha; cbn [negb]; [|discriminate]. rewrite (avail_app _ _ x Ha). cbn [negb]. apply IH.
    + apply IH.
  - apply IH.
Qed.

(* hence no program accepts both an input in full and a strict prefix of it: what a decoder takes
   to the last byte is self-delimiting *)
Corollary runo_prefix_free A (p : prog A) known pre suf v :
  runo p known (pre ++ suf) = OOk v [] -> suf <> [] -> forall v' r, runo p known pre <> OOk v' r.
Proof.
  intros Hall Hs v' r Hpre. rewrite (runo_extend _ p known suf pre v' r Hpre) in Hall.
  injection Hall as _ Hr. apply app_eq_nil in Hr as [_ Hr]. now apply Hs.
Qed.

(* [okP Q p]: on every input, p ends in a value satisfying Q or in an error; it
   never panics and never runs out of fuel *)
Definition okP {A} (Q : A -> Prop) (p : prog A) : Prop :=
  forall known bs,
    match runo p known bs with
    | OOk a _ => Q a
    | OErr _ => True
    | OPanic => False
    | ONoFuel => False
    end.

Lemma okP_weaken A (Q R : A -> Prop) (p : prog A) : (forall a, Q a -> R a) -> okP Q p -> okP R p.
Proof. intros H Hp known bs. specialize (Hp known bs). destruct (runo p known bs); auto. Qed.

Lemma okP_no_panic {A} {Q : A -> Prop} {p : prog A} : okP Q p ->
  forall known bs, runo p known bs <> OPanic /\ runo p known bs <> ONoFuel.
Proof. intros H known bs. specialize (H known bs). destruct (runo p known bs); split; try discriminate; contradiction. Qed.

Lemma okP_ret A (Q : A -> Prop) a : Q a -> okP Q (Ret a).
Proof. intros H known bs. exact H. Qed.
Lemma okP_fail A (Q : A -> Prop) : okP Q (@Fail A).
Proof. intros known bs. exact I. Qed.

Lemma okP_bind A B (Q : A -> Prop) (R : B -> Prop) (p : prog A) (f : A -> prog B) :
  okP Q p -> (forall a, Q a -> okP R (f a)) -> okP R (bindp p f).
Proof.
  intros Hp Hf known bs. rewrite runo_bind. specialize (Hp known bs).
  destruct (runo p known bs) as [a r|r| |]; auto. now apply Hf.
Qed.

Lemma okP_read n : okP (fun bs => length bs = N.to_nat n) (read n).
Proof.
  intros known bs. cbn [read runo]. destruct (avail n bs) eqn:Ha; [|exact I].
  cbn [runo]. rewrite firstn_length. pose proof (avail_true_len _ _ Ha). lia.
Qed.
Lemma okP_read_byte : okP (fun _ => True) read_byte.
Proof. intros known bs. cbn [read_byte runo]. destruct bs; exact I. Qed.
Lemma okP_emit h : okP (fun _ => True) (emit h).
Proof. intros known bs. exact I. Qed.

Lemma okP_rep_nat A (Q : A -> Prop) (c : prog A) n :
  okP Q c -> okP (fun l => Forall Q l /\ length l = n) (rep_nat n c).
Proof.
  intros Hc. induction n as [|n IH]; cbn [rep_nat].
  - apply okP_ret. split; [constructor|reflexivity].
  - eapply okP_bind; [exact Hc|]. intros a Ha.
    eapply okP_bind; [exact IH|]. intros l [Hl Hn]. apply okP_ret. split; [now constructor|cbn; lia].
Qed.

(* independence of the known-length flag is stated up to [oview]: what is left after an error is
   not compared, since with a known length the guard of a bulk read fails before anything is taken *)
Definition oview {A} (o : out A) : out A := match o with OErr _ => OErr [] | x => x end.

Lemma oview_ok A (o : out A) v r : oview o = OOk v r -> o = OOk v r.
Proof. destruct o; cbn [oview]; congruence. Qed.

Definition keq {A} (p : prog A) : Prop :=
  forall bs, oview (runo p true bs) = oview (runo p false bs).

Lemma keq_ret A (a : A) : keq (Ret a). Proof. intros bs; reflexivity. Qed.
Lemma keq_fail A : keq (@Fail A). Proof. intros bs; reflexivity. Qed.
Lemma keq_crash A : keq (@Crash A). Proof. intros bs; reflexivity. Qed.

(* "same outcome up to [oview]" passes through bind, whatever the two programs, continuations and flags *)
Lemma oview_bind A B (p p' : prog A) (f f' : A -> prog B) k k' bs :
  oview (runo p k bs) = oview (runo p' k' bs) ->
  (forall a r, oview (runo (f a) k r) = oview (runo (f' a) k' r)) ->
  oview (runo (bindp p f) k bs) = oview (runo (bindp p' f') k' bs).
Proof.
  intros H Hf. rewrite !runo_bind.
  destruct (runo p k bs), (runo p' k' bs); cbn [oview] in H; try discriminate; try reflexivity.
  injection H as -> ->. apply Hf.
Qed.

Lemma keq_bind A B (p : prog A) (f : A -> prog B) :
  keq p -> (forall a, keq (f a)) -> keq (bindp p f).
Proof. intros Hp Hf bs. apply oview_bind; [apply Hp|intros a r; apply Hf]. Qed.

Lemma keq_read A n (f : list byte -> prog A) : (forall b, keq (f b)) -> keq (Read n f).
Proof. intros Hf bs. cbn [runo]. destruct (avail n bs); [apply Hf|reflexivity]. Qed.
Lemma keq_read_byte A (f : byte -> prog A) : (forall b, keq (f b)) -> keq (ReadByte f).
Proof. intros Hf bs. cbn [runo]. destruct bs; [reflexivity|apply Hf]. Qed.
Lemma keq_emit A h (p : prog A) : keq p -> keq (Emit h p).
Proof. intros Hp bs. cbn [runo]. apply Hp. Qed.

Lemma runo_rep_nat_ok A B (c : prog B) (enc : A -> option (list byte)) (g : A -> B) known (l : list A) :
  (forall a, In a l -> forall bs, enc a = Some bs -> forall rest, runo c known (bs ++ rest) = OOk (g a) rest) ->
  forall bss, map enc l = map Some bss ->
  forall rest, runo (rep_nat (length l) c) known (concat bss ++ rest) = OOk (map g l) rest.
Proof.
  induction l as [|a l IH]; intros Hc bss Hb rest.
  - destruct bss; [reflexivity|discriminate].
  - destruct bss as [|bs bss]; [discriminate|]. cbn [map] in Hb. inversion Hb as [[Ha Hl]].
    cbn [length rep_nat concat map]. rewrite runo_bind, <- app_assoc.
    rewrite (Hc a (or_introl eq_refl) bs Ha). rewrite runo_bind.
    rewrite IH; [reflexivity| |exact Hl]. intros a' Hin. apply Hc. now right.
Qed.

Lemma runo_rep A (c : prog A) n known bs : runo (rep n c) known bs = runo (rep_nat (N.to_nat n) c) known bs.
Proof. apply peq_runo, rep_rep_nat. Qed.

(* One level of nesting: what the decoders of Box/Rc/Arc and of the element-wise containers put
   around their body.  Codec.dec (TBox, TColl) and Rec.boxed write it out; lemmas about [nest] apply
   to them by conversion, with p and g given. *)
Definition nest {A B} (p : prog A) (g : A -> B) : prog B :=
  emit HDescend ;;; v <- p ;; emit HAscend ;;; Ret (g v).

Lemma runt_nest A B (p : prog A) (g : A -> B) known bs :
  runt (nest p g) known bs =
  match runt p known bs with
  | (OOk a r, e) => (OOk (g a) r, EHook HDescend :: e ++ [EHook HAscend])
  | (OErr r, e) => (OErr r, EHook HDescend :: e)
  | (OPanic, e) => (OPanic, EHook HDescend :: e)
  | (ONoFuel, e) => (ONoFuel, EHook HDescend :: e)
  end.
Proof.
  unfold nest. cbn [emit bindp runt]. rewrite runt_bind.
  destruct (runt p known bs) as [[a r|r| |] e]; reflexivity.
Qed.

(* The loop of decode_vec_chunked and read_vec_from_u8s: n items in chunks of at most cl, n / cl full
   chunks and then the remainder if there is one; [c k] produces one chunk of k items.  Codec.chunked_items is an instance, Codec.bulk_bytes one behind its known-length guard. *)
Definition two_stage {A} (cl n : N) (c : N -> prog (list A)) : prog (list A) :=
  full <- (if n / cl =? 0 then Ret [] else rep (n / cl) (c cl)) ;;
  (if n mod cl =? 0 then Ret (concat full) else last <- c (n mod cl) ;; Ret (concat full ++ last)).

(* the guard on the number of full chunks only saves work: [rep 0 c] is [Ret []] already *)
Lemma two_stage_rep A cl n (c : N -> prog (list A)) :
  two_stage cl n c =
  (full <- rep (n / cl) (c cl) ;;
   if n mod cl =? 0 then Ret (concat full) else last <- c (n mod cl) ;; Ret (concat full ++ last)).
Proof. unfold two_stage. now destruct (n / cl). Qed.

(* programs that never issue an event of class c *)
Fixpoint silent (c : event -> bool) {A} (p : prog A) : Prop :=
  match p with
  | Emit h k => c (EHook h) = false /\ silent c k
  | Read _ k => forall bs, silent c (k bs)
  | ReadByte k => forall b, silent c (k b)
  | Need _ k => silent c k
  | _ => True
  end.

Lemma silent_bind c A B (p : prog A) (g : A -> prog B) : silent c p -> (forall a, silent c (g a)) -> silent c (bindp p g).
Proof.
  intros Hp Hg. induction p as [a| | | |n k IH|k IH|nd k IH|h k IH]; cbn [silent bindp] in *; auto.
  split; [apply Hp|apply IH, Hp].
Qed.
Lemma silent_rep_nat c A (p : prog A) n : silent c p -> silent c (rep_nat n p).
Proof.
  intros Hp. induction n as [|n IH]; cbn [rep_nat]; [exact I|].
  apply silent_bind; [exact Hp|]. intros a. apply silent_bind; [exact IH|]. intros l. exact I.
Qed.
Lemma silent_rep c A (p : prog A) n : silent c p -> silent c (rep n p).
Proof.
  intros Hp. destruct n as [|q]; [exact I|]. cbn [rep].
  induction q as [q IH|q IH|]; cbn [rep_pos]; repeat (apply silent_bind; [assumption|intros]); exact I.
Qed.

(* the trace of a silent program has no event of the class (reads are in no class of interest) *)
Lemma silent_filter c A (p : prog A) : (forall n, c (ERead n) = false) -> silent c p ->
  forall known bs, filter c (snd (runt p known bs)) = [].
Proof.
  intros Hr. induction p as [a| | | |n k IH|k IH|nd k IH|h k IH]; intros Hp known bs; cbn [runt silent] in *; auto.
  - destruct (avail n bs); [|reflexivity]. cbn [cons_ev snd filter]. rewrite Hr. now apply IH.
  - destruct bs as [|b r]; [reflexivity|]. cbn [cons_ev snd filter]. rewrite Hr. now apply IH.
  - destruct (known && negb (avail nd bs)); [reflexivity|]. now apply IH.
  - destruct Hp as [Hh Hk]. cbn [cons_ev snd filter]. rewrite Hh. now apply IH.
Qed.

(* proves [silent c p] for a program written out with the operations of Prog.v, or fails *)
Ltac silence := solve [repeat first
  [ progress cbn [silent bindp read read_byte emit need]
  | progress intros
  | split
  | reflexivity
  | apply silent_bind
  | apply silent_rep_nat
  | apply silent_rep
  | assumption
  | match goal with |- silent _ (match ?x with _ => _ end) => destruct x end
  | match goal with |- silent _ (if ?x then _ else _) => destruct x end
  | exact I ]].
